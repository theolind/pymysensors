(* C18 - decidable form of "the option is visible where it acts" (Spec.ConfigSpec.honoured)
   and the per-case checker exposed by the runner (sound for the statement: Proofs/ConfigFinite.check_case_sound)
   (in-model search, DESIGN section 5 step 4).  Definitions only. *)
From Coq Require Import List NArith ZArith Bool String.
From PMS Require Import Base.PyStr Base.Exn Model.ConfigSyntax Model.ConfigVersion Model.Config
  Spec.ConfigSpec Gen.Signatures.
Import ListNotations.
Open Scope N_scope.
Open Scope list_scope.

Definition look_is (lk : list pstr -> option val) (path : list pstr) (v : val) : bool :=
  match lk path with Some x => val_eqb x v | None => false end.

Definition is_ref (o : option val) : bool := match o with Some (VRef _) => true | _ => false end.

Definition honoured_b (lk : list pstr -> option val) (c : gwclass) (sel : list (opt * val))
  (o : opt) (v : val) : bool :=
  match o with
  | OTimeout => look_is lk (p ["tasks"; "transport"; "timeout"]%string) v
  | OReconnectTimeout => look_is lk (p ["tasks"; "transport"; "reconnect_timeout"]%string) v
  | OBaud => look_is lk (p ["baud"]%string) v
  | OPort => look_is lk (p ["server_address"]%string) (VPair (host_of c) v)
  | OInPrefix => look_is lk (p ["tasks"; "transport"; "in_prefix"]%string) v
  | OOutPrefix => look_is lk (p ["tasks"; "transport"; "out_prefix"]%string) v
  | ORetain => look_is lk (p ["tasks"; "transport"; "_retain"]%string) v
  | OEventCallback => look_is lk (p ["event_callback"]%string) v
  | OPersistence =>
      if is_true_val v then is_ref (lk (p ["tasks"; "persistence"]%string))
      else look_is lk (p ["tasks"; "persistence"]%string) VNone
  | OPersistenceFile =>
      negb (persistence_on sel)
      || look_is lk (p ["tasks"; "persistence"; "persistence_file"]%string) v
  | OProtocolVersion =>
      look_is lk (p ["protocol_version"]%string) v &&
      existsb (fun second =>
                 val_eqb v (rep OProtocolVersion second) &&
                 look_is lk (p ["const"]%string) (VObj (floor_module (rep_version_sections second))))
              [false; true]
  end.

Definition is_pair_with (h : val) (o : option val) : bool :=
  match o with Some (VPair a _) => val_eqb a h | _ => false end.

Definition required_visible_b (lk : list pstr -> option val) (c : gwclass) : bool :=
  match c with
  | SerialGw | AsyncSerialGw => look_is lk (p ["port"]%string) (host_of c)
  | TCPGw | AsyncTCPGw => is_pair_with (host_of c) (lk (p ["server_address"]%string))
  | MQTTGw | AsyncMQTTGw => true
  end.

Section Check.
Variable orc : avop -> pstr -> pstr -> option bool.
Variable cont : pstr -> bool.

Definition construct_case (c : gwclass) (by_keyword : bool) (ch : list choice) : res heap :=
  let call := call_of c by_keyword ch in
  construct orc cont classes (class_name c) (fst call) (snd call).

Definition check_case (c : gwclass) (by_keyword : bool) (ch : list choice) : bool :=
  match construct_case c by_keyword ch with
  | Ok h =>
      let sel := selected c ch in
      forallb (fun ov => honoured_b (look h) c sel (fst ov) (snd ov)) sel
      && required_visible_b (look h) c
  | Raise _ => false
  end.

Definition check_class (c : gwclass) : bool :=
  forallb (fun kw => forallb (check_case c kw) (all_choices (List.length (documented c)))) [false; true].

End Check.

(* Gateway.alert as far as the options event_callback / persistence take effect
   through it: (is the callback invoked, is the network marked as changed).
   Generated facts: alert_calls_callback, alert_dirty. *)
Definition alert_model (has_callback persistence_on dirty : bool) : bool * bool :=
  (has_callback && alert_calls_callback,
   if persistence_on
      && match alert_dirty with
         | DirtyAlways => true
         | DirtyOnlyWithCallback => has_callback
         | DirtyNever => false
         end
   then true else dirty).

(* the generated facts agree with the specification's reading of the documentation *)
Definition gen_supported : list (list N * pstr) :=
  map (fun km => (sections (fst km), snd km)) const_versions.

Definition class_documents (cname kw : pstr) : bool :=
  existsb (fun c => pstr_eqb (class_name c) cname
                    && existsb (fun o => pstr_eqb (opt_name o) kw) (documented c)) all_classes.

(* every keyword used by a documented example is a documented option of that class *)
Definition examples_documented : bool :=
  forallb (fun e => forallb (class_documents (ex_class e)) (ex_keywords e)) doc_examples.
