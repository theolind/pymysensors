(* C15 - periodic saving heals itself.  The theorems hold for every good shape
   (Proofs/SaveSchedProofs.v) and are instantiated here with the generated one; the
   refutations and examples are computed here.

   The machine is Model/SaveSched.v run with [gen_cfg], the shape of
   _save_sensors (the body save_sensors runs under its save lock; "save_sensors"
   below) / schedule_save / save_on_schedule / stop read from the working
   tree on every run (Gen/SchedAst.v).  All theorems quantify over both gateway
   flavours [fl], over every dict-iteration policy that is exact on an unchanged
   dict (json and pickle are instances, C15_policies), over every initial tree and
   file, and over every finite sequence of events: timer fires (with or without
   write permission), sub-steps with or without an I/O fault, inbound messages at
   any point, stop.  [reachable c fl pol s] := s = run c fl pol (init t0 f0) evs. *)
From Coq Require Import List ZArith Bool Arith.
From PMS Require Import Model.SaveSched Gen.SchedAst Proofs.SaveSchedProofs Proofs.SaveSchedGenProofs.
Import ListNotations.

(* the code's current shape has the mechanisms the proofs need: flag cleared before
   serialising, handler restores it, both schedules catch OSError and RuntimeError and
   fall through to the re-arm, stop cancels and saves *)
Theorem C15_generated_shape_good : good gen_cfg = true.
Proof. exact gen_good. Qed.

Theorem C15_policies : forall f, policy_ok (pol_of f).
Proof. destruct f; [apply pol_json_ok | apply pol_pickle_ok]. Qed.

(* 1. a save that raises - at any sub-step, OSError or RuntimeError - keeps need_save
      True, does not touch the files in that step, and a load still returns what it
      returned when the save began; only a failing removal of the backup leaves the
      complete new snapshot instead *)
Theorem C15_failed_save_keeps_old_file :
  forall fl pol, policy_ok pol ->
  forall s e cls r, reachable gen_cfg fl pol s ->
    snd (step gen_cfg fl pol s e) = OEnded false false (Some cls) r ->
    let s' := fst (step gen_cfg fl pol s e) in
    s_dirty s' = true /\ s_fs s' = s_fs s /\ s_tree s' = s_tree s /\ s_saving s' = None /\
    exists v, s_saving s = Some v /\
              (load (s_fs s') = v_load0 v \/ (v_todo v = [SRemBak] /\ load (s_fs s') = Some (v_snap v))).
Proof. exact (failed_save_good gen_cfg gen_good). Qed.

(* the ghost field v_load0 of theorem 1 is the load result at the begin of the save *)
Theorem C15_load0_is_load_at_begin :
  forall fl pol s e v, reachable gen_cfg fl pol s -> s_saving s = None ->
    s_saving (fst (step gen_cfg fl pol s e)) = Some v -> v_load0 v = load (s_fs s).
Proof. intros fl pol s e v _. exact (load0_at_begin_good gen_cfg gen_good fl pol s e v). Qed.

Theorem C15_load0_kept :
  forall fl pol, policy_ok pol ->
  forall s e v v', reachable gen_cfg fl pol s -> s_saving s = Some v ->
    s_saving (fst (step gen_cfg fl pol s e)) = Some v' -> v_load0 v' = v_load0 v.
Proof. exact (load0_kept_good gen_cfg gen_good). Qed.

(* 2. the schedule never dies: unless stopped, either the next run is armed or a
      scheduled save is in progress; after stop nothing is armed *)
Theorem C15_schedule_survives_failure :
  forall fl pol, policy_ok pol ->
  forall s, reachable gen_cfg fl pol s ->
    if s_stopped s
    then s_armed s = false /\ (forall v, s_saving s = Some v -> v_owner v = OFinal)
    else (s_armed s = true /\ s_saving s = None)
         \/ (s_armed s = false /\ exists v, s_saving s = Some v /\ v_owner v = OSched).
Proof. exact (schedule_survives_good gen_cfg gen_good). Qed.

(* ... and every event that ends a scheduled save, however it ends, arms the next one *)
Theorem C15_every_fire_rearms :
  forall fl pol, policy_ok pol ->
  forall s e sk dn fc r, reachable gen_cfg fl pol s ->
    snd (step gen_cfg fl pol s e) = OEnded sk dn fc r ->
    s_stopped (fst (step gen_cfg fl pol s e)) = false ->
    s_armed (fst (step gen_cfg fl pol s e)) = true /\ s_saving (fst (step gen_cfg fl pol s e)) = None.
Proof. exact (every_fire_rearms_good gen_cfg gen_good). Qed.

(* 3. healing: from any reachable idle unsaved state - whatever failed before - a
      fault-free undisturbed scheduled save persists the current state *)
Theorem C15_next_success_persists_current :
  forall fl pol, policy_ok pol ->
  forall s, reachable gen_cfg fl pol s ->
    s_saving s = None -> s_armed s = true -> s_dirty s = true ->
    let s' := run gen_cfg fl pol s
                  (EFire false :: repeat (EStep FNone) (save_len (s_tree s) (is_some (f_main (s_fs s))))) in
    s_saving s' = None /\ s_dirty s' = false /\ load (s_fs s') = Some (s_tree s)
    /\ s_tree s' = s_tree s /\ s_armed s' = true /\ s_stopped s' = s_stopped s.
Proof. intros fl pol Hpol s _. exact (next_success_good gen_cfg gen_good fl pol Hpol s). Qed.

(* with messages in between: a save that returns has put a complete snapshot in
   place, and it equals the tree whenever need_save is False afterwards *)
Theorem C15_returning_save_persists_snapshot :
  forall fl pol, policy_ok pol ->
  forall s e v, reachable gen_cfg fl pol s -> s_saving s = Some v ->
    snd (step gen_cfg fl pol s e) = OEnded false false None false ->
    let s' := fst (step gen_cfg fl pol s e) in
    load (s_fs s') = Some (v_snap v) /\ s_dirty s' = s_dirty s /\ s_saving s' = None
    /\ (s_dirty s' = false -> v_snap v = s_tree s').
Proof. exact (ok_save_good gen_cfg gen_good). Qed.

(* 4. no lost update (what D10 violated): whenever no save is running and the state
      is marked saved, the file holds exactly the current state *)
Theorem C15_no_lost_update :
  forall fl pol, policy_ok pol ->
  forall s, reachable gen_cfg fl pol s ->
    s_saving s = None -> s_dirty s = false -> load (s_fs s) = Some (s_tree s).
Proof. exact (no_lost_update_good gen_cfg gen_good). Qed.

(* 5. stop at an idle point with a fault-free final save loses nothing and leaves
      nothing scheduled *)
Theorem C15_stop_persists :
  forall fl pol, policy_ok pol ->
  forall s, reachable gen_cfg fl pol s ->
    s_saving s = None -> s_stopped s = false ->
    let s' := run gen_cfg fl pol s
                  (EStop false :: repeat (EStep FNone) (save_len (s_tree s) (is_some (f_main (s_fs s))))) in
    s_saving s' = None /\ load (s_fs s') = Some (s_tree s) /\ s_tree s' = s_tree s
    /\ s_armed s' = false /\ s_stopped s' = true.
Proof. exact (stop_persists_good gen_cfg gen_good). Qed.

(* sensitivity: the two pre-fix shapes violate 4 and 2 (both flavours, both formats) *)
Theorem C15_no_lost_update_unfixed_refuted :
  forall fl f,
    let s := run cfg_d10 fl (pol_of f) (init [] no_file) d10_witness in
    s_saving s = None /\ s_dirty s = false /\ s_stopped s = false
    /\ load (s_fs s) = Some [] /\ s_tree s = [mkNode 1 17 []].
Proof. intros fl f; destruct fl, f; vm_compute; repeat split; reflexivity. Qed.

Theorem C15_schedule_survives_unfixed_refuted :
  forall fl f,
    let s := run cfg_d9 fl (pol_of f) (init ex_tree no_file) d9_witness in
    s_stopped s = false /\ s_armed s = false /\ s_saving s = None /\ s_dirty s = true.
Proof. intros fl f; destruct fl, f; vm_compute; repeat split; reflexivity. Qed.

(* non-vacuity *)
Example C15_example_heals :
  let s := run cfg_fixed Sync pol_json (init ex_tree no_file) ex_history in
  s_saving s = None /\ s_dirty s = false /\ s_armed s = true
  /\ load (s_fs s) = Some (s_tree s) /\ length (s_tree s) = 2.
Proof. vm_compute. repeat split; reflexivity. Qed.

Example C15_example_failed_step :
  let s := run cfg_fixed Async pol_pickle (init ex_tree no_file) [EFire false; EStep FNone] in
  snd (step cfg_fixed Async pol_pickle s (EStep FIO)) = OEnded false false (Some FOSError) true.
Proof. vm_compute. reflexivity. Qed.

Example C15_example_shapes : good cfg_fixed = true /\ good cfg_d9 = false /\ good cfg_d10 = false.
Proof. vm_compute. repeat split; reflexivity. Qed.

Example C15_example_witnesses_under_fixed_shape :
  forall fl f,
    let s := run cfg_fixed fl (pol_of f) (init [] no_file) d10_witness in
    let s2 := run cfg_fixed fl (pol_of f) (init ex_tree no_file) d9_witness in
    (s_saving s = None /\ s_dirty s = true) /\ (s_armed s2 = true /\ s_dirty s2 = true).
Proof. intros fl f; destruct fl, f; vm_compute; repeat split; reflexivity. Qed.

Print Assumptions C15_generated_shape_good.
Print Assumptions C15_policies.
Print Assumptions C15_failed_save_keeps_old_file.
Print Assumptions C15_load0_is_load_at_begin.
Print Assumptions C15_load0_kept.
Print Assumptions C15_schedule_survives_failure.
Print Assumptions C15_every_fire_rearms.
Print Assumptions C15_next_success_persists_current.
Print Assumptions C15_returning_save_persists_snapshot.
Print Assumptions C15_no_lost_update.
Print Assumptions C15_stop_persists.
Print Assumptions C15_no_lost_update_unfixed_refuted.
Print Assumptions C15_schedule_survives_unfixed_refuted.
