(* C17 - MQTT topics and commands map one-to-one. *)
From Coq Require Import String.
From Coq Require Import List NArith ZArith Bool Lia.
From PMS Require Import Base.PyStr Base.PyInt Base.Exn Model.Codec Model.Mqtt Spec.MqttSpec
  Proofs.CodecProofs Proofs.MqttProofs.
Import ListNotations.
Open Scope N_scope.

(* parse_message_to_mqtt: a line that decodes is published under /node/child/type/ack/subtype
   with its payload and qos = ack; any other line raises ValueError and nothing else *)
Theorem C17_publish_shape : forall l : pstr,
  (exists m, decode l = Some m /\ to_mqtt l = Ok (topic_of m, m_payload m, m_ack m)) \/
  (decode l = None /\ to_mqtt l = Raise ValueError).
Proof.
  intro l. destruct (decode l) as [m|] eqn:D.
  - left. exists m. split; [reflexivity|]. apply to_mqtt_decoded, D.
  - right. split; [reflexivity|]. unfold to_mqtt. rewrite D. reflexivity.
Qed.

(* for EVERY prefix string (empty, nested, digit-only levels, leading/trailing '/') and every
   line that Message.decode accepts with ack 0 or 1 (any integer header, any payload the
   codec can carry - by C02 exactly those without ';' and trailing white space):
   what is published comes back as the canonical command without its newline; qos > 0
   exactly when ack = 1; a canonical command comes back byte for byte *)
Theorem C17_mqtt_roundtrip : forall (pfx l : pstr) (m : msg),
  decode l = Some m -> (m_ack m = 0 \/ m_ack m = 1)%Z ->
  exists topic payload qos,
    to_mqtt l = Ok (topic, payload, qos) /\
    from_mqtt pfx (pfx ++ topic) payload qos = Ok (Some (line_of m)) /\
    ((0 < qos)%Z <-> m_ack m = 1%Z) /\
    (canonical l -> l = line_of m ++ [nl]).
Proof.
  intros pfx l m D A. exists (topic_of m), (m_payload m), (m_ack m).
  split; [apply to_mqtt_decoded, D|]. split; [rewrite from_mqtt_topic_of, delivered_same by exact A; reflexivity|].
  split; [lia|].
  intro C. destruct (encode_decode_canonical l m D) as [_ [_ E]].
  rewrite <- (E C). apply encode_body.
Qed.

(* the same in the property's words: every canonical command (integer header, ack 0/1,
   payload the codec can carry), every prefix *)
Theorem C17_mqtt_roundtrip_canonical : forall (pfx : pstr) (m : msg),
  wire_ok (m_payload m) = true -> (m_ack m = 0 \/ m_ack m = 1)%Z ->
  encode m = line_of m ++ [nl] /\
  to_mqtt (encode m) = Ok (topic_of m, m_payload m, m_ack m) /\
  from_mqtt pfx (pfx ++ topic_of m) (m_payload m) (m_ack m) = Ok (Some (line_of m)) /\
  ((0 < m_ack m)%Z <-> m_ack m = 1%Z).
Proof.
  intros pfx m W A. split; [apply encode_body|]. split; [apply to_mqtt_decoded, decode_encode, W|].
  split; [rewrite from_mqtt_topic_of, delivered_same by exact A; reflexivity|lia].
Qed.

(* delivery with an arbitrary qos and payload (and an arbitrary integer ack in the published
   command): the received command has ack = 1 if qos > 0 else 0 and the delivered payload *)
Theorem C17_mqtt_roundtrip_any_qos : forall (pfx l : pstr) (m : msg) (p : pstr) (q : Z),
  decode l = Some m ->
  to_mqtt l = Ok (topic_of m, m_payload m, m_ack m) /\
  from_mqtt pfx (pfx ++ topic_of m) p q = Ok (Some (line_of (delivered m q p))).
Proof. intros pfx l m p q D. split; [apply to_mqtt_decoded, D|apply from_mqtt_topic_of]. Qed.

(* non-vacuity: prefix that looks like message levels, payload with inner blanks and '/' *)
Example C17_roundtrip_example :
  let pfx := s2p "1/2/1/0/2" in
  let l := s2p "7;3;1;1;2;hi /there" ++ [nl] in
  match to_mqtt l with
  | Ok (t, p, q) => t = s2p "/7/3/1/1/2" /\ q = 1%Z /\
                    from_mqtt pfx (pfx ++ t) p q = Ok (Some (s2p "7;3;1;1;2;hi /there"))
  | Raise _ => False
  end.
Proof. vm_compute. repeat split. Qed.

(* an ack other than 0/1 (no validated message has one) is published as that qos and comes
   back as ack 1: the premise of C17_mqtt_roundtrip is needed *)
Example C17_ack_out_of_range :
  let l := s2p "1;2;1;2;3;x" ++ [nl] in
  match to_mqtt l with
  | Ok (t, p, q) => q = 2%Z /\ from_mqtt [] t p q = Ok (Some (s2p "1;2;1;1;3;x"))
  | Raise _ => False
  end.
Proof. vm_compute. repeat split. Qed.

(* a topic is accepted exactly when it is the configured prefix followed by five levels *)
Theorem C17_mqtt_accept_iff : forall (pfx t p : pstr) (q : Z),
  (exists line, from_mqtt pfx t p q = Ok (Some line)) <->
  (exists l1 l2 l3 l4 l5, level l1 /\ level l2 /\ level l3 /\ level l4 /\ level l5 /\
     t = pfx ++ s2p "/" ++ l1 ++ s2p "/" ++ l2 ++ s2p "/" ++ l3 ++ s2p "/" ++ l4 ++ s2p "/" ++ l5).
Proof.
  intros pfx t p q. split.
  - intros [line H]. apply from_mqtt_some in H as (ls & L & F & -> & _).
    destruct (five_levels ls L) as [l1 [l2 [l3 [l4 [l5 ->]]]]].
    exists l1, l2, l3, l4, l5. repeat apply Forall_cons_iff in F as [? F]. tauto.
  - intros [l1 [l2 [l3 [l4 [l5 [F1 [F2 [F3 [F4 [F5 ->]]]]]]]]]].
    eexists. apply from_mqtt_some. exists [l1; l2; l3; l4; l5]. repeat constructor; assumption.
Qed.

(* ... and then the command is the five levels with the fourth replaced by the qos flag,
   followed by the payload *)
Theorem C17_mqtt_accept_value : forall (pfx l1 l2 l3 l4 l5 p : pstr) (q : Z),
  level l1 -> level l2 -> level l3 -> level l4 -> level l5 ->
  from_mqtt pfx (pfx ++ s2p "/" ++ l1 ++ s2p "/" ++ l2 ++ s2p "/" ++ l3 ++ s2p "/" ++ l4 ++ s2p "/" ++ l5) p q
  = Ok (Some (l1 ++ s2p ";" ++ l2 ++ s2p ";" ++ l3 ++ s2p ";" ++ ack_str q ++ s2p ";" ++ l5 ++ s2p ";" ++ p)).
Proof.
  intros. apply from_mqtt_some. exists [l1; l2; l3; l4; l5]. repeat constructor; assumption.
Qed.

(* receiving never raises, whatever the topic *)
Theorem C17_from_mqtt_never_raises : forall (pfx t p : pstr) (q : Z),
  exists o, from_mqtt pfx t p q = Ok o.
Proof.
  intros. rewrite from_mqtt_eq.
  destruct (_ <? 6)%Z; [|destruct (pstr_eqb _ pfx)]; eexists; reflexivity.
Qed.

(* the three D16 witnesses and prefixes with empty levels *)
Example C17_accept_examples :
  from_mqtt (s2p "1/2/1/0/2") (s2p "1/2/1/0/2/1/2/1/0/2") (s2p "p") 0 = Ok (Some (s2p "1;2;1;0;2;p")) /\
  from_mqtt (s2p "a") (s2p "a/1/2/1/0/2/x/1/2/1/0/2") [] 0 = Ok None /\
  from_mqtt [] (s2p "x") [] 0 = Ok None /\
  from_mqtt [] (s2p "/1/2/1/0/2") [] 2 = Ok (Some (s2p "1;2;1;1;2;")) /\
  from_mqtt (s2p "a/") (s2p "a//1/2/1/0/2") [] 0 = Ok (Some (s2p "1;2;1;0;2;")) /\
  from_mqtt (s2p "a/") (s2p "a/1/2/1/0/2") [] 0 = Ok None /\
  from_mqtt (s2p "/") (s2p "//1/2/1/0/2") [] 0 = Ok (Some (s2p "1;2;1;0;2;")).
Proof. vm_compute. repeat split. Qed.

(* persistence enabled: after connect (init_topics on the restored state st0) and any history
   of presentations / node additions, for every behaviour of the subscribe callback, the
   subscribe callback was called for the presentation and internal wildcards and for the
   set, req and stream topics of every child in the network - restored or presented *)
Theorem C17_subscriptions_cover :
  forall (sub : nat -> pstr -> Z -> res unit) (pfx : pstr) (st0 : net) (ops : list op) (s : mstate),
  start sub pfx true st0 ops = Ok s ->
  subscribed (ms_subs s) (presentation_topic pfx) /\
  subscribed (ms_subs s) (internal_topic pfx) /\
  (forall n c, has_child st0 n c -> has_child (ms_net s) n c) /\
  (forall n c, has_child (ms_net s) n c -> child_covered pfx (ms_subs s) n c).
Proof.
  intros sub pfx st0 ops s H. destruct (start_cover sub pfx true st0 ops s H) as [A [B [C D]]].
  repeat (split; [assumption|]). intros n c K. destruct (D n c K) as [[E _]|E]; [discriminate|exact E].
Qed.

(* persistence disabled: init_topics returns after the two wildcards, so children that were
   already in gateway.sensors when it ran (st0) are not subscribed by it; every child
   presented afterwards is covered.  On a freshly constructed gateway st0 = [] *)
Theorem C17_subscriptions_cover_no_persistence :
  forall (sub : nat -> pstr -> Z -> res unit) (pfx : pstr) (st0 : net) (ops : list op) (s : mstate),
  start sub pfx false st0 ops = Ok s ->
  subscribed (ms_subs s) (presentation_topic pfx) /\
  subscribed (ms_subs s) (internal_topic pfx) /\
  (forall n c, has_child st0 n c -> has_child (ms_net s) n c) /\
  (forall n c, has_child (ms_net s) n c -> has_child st0 n c \/ child_covered pfx (ms_subs s) n c).
Proof.
  intros sub pfx st0 ops s H. destruct (start_cover sub pfx false st0 ops s H) as [A [B [C D]]].
  repeat (split; [assumption|]). intros n c K. destruct (D n c K) as [[_ E]|E]; [left|right]; exact E.
Qed.

(* exactly the two wildcards, whatever is in the network *)
Theorem C17_init_topics_without_persistence :
  forall (sub : nat -> pstr -> Z -> res unit) (pfx : pstr) (st : net) (k : nat) (l : list (pstr * Z)),
  init_topics sub pfx false st k = Ok l ->
  map fst l = [presentation_topic pfx; internal_topic pfx].
Proof.
  intros sub pfx st k l. destruct (init_topics_spec sub pfx false st k) as [l' [-> M]]. intros [= <-].
  rewrite M. reflexivity.
Qed.

(* the covered set is not vacuous: a child presented to a known node is in the network
   afterwards (and was known before or is covered now) *)
Theorem C17_presented_child_is_known :
  forall (sub : nat -> pstr -> Z -> res unit) (pfx : pstr) (s : mstate) (n c : Z),
  has_node (ms_net s) n = true -> c <> 255%Z ->
  exists s', step sub pfx s (Present n c) = Ok s' /\ has_child (ms_net s') n c /\
             (has_child (ms_net s) n c \/ child_covered pfx (ms_subs s') n c).
Proof.
  intros sub pfx s n c HN HC. cbn [step].
  destruct (presentation_spec sub pfx (ms_net s) (length (ms_subs s)) n c) as [st' [l [-> [P1 [P2 P3]]]]].
  eexists. split; [reflexivity|]. cbn [ms_net ms_subs fst snd]. split; [exact (P3 HN HC)|].
  destruct (P2 n c (P3 HN HC)) as [K|K]; [left; exact K|right]. revert K. apply covered_mono.
  intros t K. apply subscribed_app. right. exact K.
Qed.

Example C17_subscriptions_example :
  let sub := fun (k : nat) (_ : pstr) (_ : Z) => if Nat.eqb k 3 then Raise OSError else Ok tt in
  match start sub (s2p "in/1") true [(7, [0; 3])%Z] [Present 1 255; Present 1 4; Present 1 4; Present 9 1; AddNode 2; Present 2 0]%Z with
  | Ok s => ms_net s = [(7, [0; 3]); (1, [4]); (2, [0])]%Z /\
            map fst (ms_subs s) = map s2p
              ["in/1/+/+/0/+/+"; "in/1/+/+/3/+/+"; "in/1/7/0/1/+/+"; "in/1/7/0/2/+/+"; "in/1/7/3/1/+/+";
               "in/1/7/3/2/+/+"; "in/1/7/+/4/+/+"; "in/1/1/4/1/+/+"; "in/1/1/4/2/+/+"; "in/1/1/+/4/+/+";
               "in/1/2/0/1/+/+"; "in/1/2/0/2/+/+"; "in/1/2/+/4/+/+"]%string
  | Raise _ => False
  end.
Proof. vm_compute. repeat split. Qed.

(* the early return: a child known before connect is not subscribed when persistence is off *)
Example C17_no_persistence_example :
  match start (fun _ _ _ => Ok tt) (s2p "p") false [(7, [0])%Z] [] with
  | Ok s => map fst (ms_subs s) = map s2p ["p/+/+/0/+/+"; "p/+/+/3/+/+"]%string
  | Raise _ => False
  end.
Proof. vm_compute. reflexivity. Qed.

(* send returns normally for every message (None, empty, unparsable, valid) and every
   behaviour of the publish callback *)
Theorem C17_callbacks_cannot_stop_pump_send :
  forall (pub : pstr -> pstr -> Z -> bool -> res unit) (out_prefix : pstr) (retain : bool)
         (message : option pstr),
  exists r, send pub out_prefix retain message = Ok r.
Proof.
  intros. unfold send. destruct message as [[|c d]|]; try (eexists; reflexivity).
  destruct (C17_publish_shape (c :: d)) as [[m [_ ->]]|[_ ->]]; [|eexists; reflexivity].
  rewrite (catch_all_ok _ _ pub_caught_all). eexists; reflexivity.
Qed.

(* handle_subscription returns normally for every behaviour of the subscribe callback and
   attempts every topic, provided each prefixed topic has at least two levels *)
Theorem C17_callbacks_cannot_stop_pump_subscribe :
  forall (sub : nat -> pstr -> Z -> res unit) (pfx : pstr) (k : nat) (topics : list pstr),
  Forall (fun t => mem_N 47 (pfx ++ t) = true) topics ->
  exists l, handle_subscription sub pfx k topics = Ok l /\ map fst l = map (app pfx) topics.
Proof. intros sub pfx k topics F. apply hsub_ok. exact F. Qed.

(* connect and every history of presentations return normally for every behaviour of the
   subscribe callback *)
Theorem C17_callbacks_cannot_stop_pump_start :
  forall (sub : nat -> pstr -> Z -> res unit) (pfx : pstr) (pers : bool) (st0 : net) (ops : list op),
  exists s, start sub pfx pers st0 ops = Ok s.
Proof.
  intros. unfold start. destruct (init_topics_spec sub pfx pers st0 0) as [l [-> _]]. cbn [bind].
  destruct (run_ops_grows sub pfx ops (mkM st0 l)) as [s [-> _]]. eexists; reflexivity.
Qed.

Example C17_callbacks_example :
  send (fun _ _ _ _ => Raise RuntimeError) (s2p "out") true (Some (s2p "1;2;1;1;2;on" ++ [nl]))
    = Ok (Some (s2p "out/1/2/1/1/2", s2p "on", 1%Z, true)) /\
  send (fun _ _ _ _ => Ok tt) (s2p "out") true (Some (s2p "1;2;1;0;2;a;b")) = Ok None /\
  handle_subscription (fun _ _ _ => Raise KeyError) (s2p "in") 0 [s2p "/1/2/1/+/+"; s2p "/1/+/4/+/+"]
    = Ok [(s2p "in/1/2/1/+/+", 0%Z); (s2p "in/1/+/4/+/+", 0%Z)].
Proof. vm_compute. repeat split. Qed.

(* the premise of the subscribe theorem is needed: a topic without any '/' under an
   empty prefix makes topic_levels[-2] raise IndexError (never passed by the library itself) *)
Example C17_subscribe_one_level_topic :
  handle_subscription (fun _ _ _ => Ok tt) [] 0 [s2p "x"] = Raise IndexError.
Proof. vm_compute. reflexivity. Qed.

Print Assumptions C17_publish_shape.
Print Assumptions C17_mqtt_roundtrip.
Print Assumptions C17_mqtt_roundtrip_canonical.
Print Assumptions C17_mqtt_roundtrip_any_qos.
Print Assumptions C17_mqtt_accept_iff.
Print Assumptions C17_mqtt_accept_value.
Print Assumptions C17_from_mqtt_never_raises.
Print Assumptions C17_subscriptions_cover.
Print Assumptions C17_subscriptions_cover_no_persistence.
Print Assumptions C17_init_topics_without_persistence.
Print Assumptions C17_presented_child_is_known.
Print Assumptions C17_callbacks_cannot_stop_pump_send.
Print Assumptions C17_callbacks_cannot_stop_pump_subscribe.
Print Assumptions C17_callbacks_cannot_stop_pump_start.
