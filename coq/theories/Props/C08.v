(* C08 - withheld traffic reaches the sleeping node exactly once, in order.
   Machine: Model/Gateway.v over the GENERATED tables and registry; oracles and clock universally
   quantified; all five configurations (cfg_ok); both task flavours.
   Invariants Inv / QInv / CInv hold in every reachable state (C08_reachable_invariants). *)
From Coq Require Import List NArith ZArith Bool String.
From PMS Require Import Base.PyStr Base.PyInt Base.Exn Model.Codec Model.TableTypes Gen.Tables Model.Validate
  Model.Oracles Model.Hex Model.Ota Model.Gateway Spec.SerialApi Proofs.ValidateProofs Proofs.GwInv
  Proofs.SleepDefs Proofs.SleepFlush Proofs.SleepTrans Proofs.SleepLife Proofs.SleepProofs
  Proofs.SleepExamples.
Import ListNotations.
Open Scope string_scope.
Open Scope list_scope.
Open Scope Z_scope.

Theorem C08_reachable_invariants :
  forall orc clock cf ops, cfg_ok cf -> Forall op_ok ops ->
    let g := run orc clock (gw_init cf) ops in Inv orc g /\ QInv g /\ CInv g /\ g_cf g = cf.
Proof. exact reachable_sleep_inv. Qed.

(* the strings of a flush: the withheld strings oldest first, then the set commands
   desired_sets = encode of desired_msgs; membership in desired_msgs, both directions: a child (in
   insertion order), a value type the node HAS REPORTED for it (in insertion order), a pending
   desired value v: the message  node;child;set;0;value type;str(v) *)
Theorem C08_flush_strings_def :
  forall t nd, flush_strings t nd = n_queue nd ++ map encode (desired_msgs t (init_smart_sleep nd)).
Proof. reflexivity. Qed.

Theorem C08_desired_msgs_def :
  forall t nd, desired_msgs t nd =
    flat_map (fun kc =>
      match zassoc (c_id (snd kc)) (n_new nd) with
      | Some dv =>
          flat_map (fun kv => match zassoc (fst kv) dv with
                              | Some (Some v) => [mkMsg (n_id nd) (c_id (snd kc)) (vt_set t) 0 (fst kv) (py_str v)]
                              | _ => []
                              end) (c_values (snd kc))
      | None => []
      end) (n_children nd).
Proof. reflexivity. Qed.

Theorem C08_desired_msgs_membership :
  forall t nd m, In m (desired_msgs t nd) <->
    exists k ch vt x v, In (k, ch) (n_children nd) /\ In (vt, x) (c_values ch) /\
                        desired nd (c_id ch) vt = Some v /\ m = set_msg_of t (n_id nd) (c_id ch) vt v.
Proof. exact In_desired_msgs. Qed.

(* flush_spec: for a known node in a state satisfying the invariants the flush returns Ok, and
   the state afterwards is `flushed g nd`: the strings are handed to add_job_send in order (log
   delta in the asyncio flavour, job queue suffix in the threaded flavour), the node's queue is
   empty, every child has a slot, desired entries are NOT cleared, nothing else changed *)
Theorem C08_flush_spec :
  forall orc g k nd, Inv orc g -> QInv g -> get_node g k = Some nd ->
    handle_smartsleep orc g nd = Ok (flushed g nd).
Proof. exact flush_spec. Qed.

(* the same as the sequence of calls: the node is stored with its queue emptied, then add_job_send
   is called on each string in order (needs Inv only) *)
Theorem C08_flush_calls :
  forall orc g k nd, Inv orc g -> get_node g k = Some nd ->
    handle_smartsleep orc g nd =
    Ok (fold_left add_job_send (flush_strings (tab g) nd) (put_node g (woken nd))).
Proof. exact handle_smartsleep_closed. Qed.

Theorem C08_flushed_fields :
  forall orc g k nd, Inv orc g -> get_node g k = Some nd ->
    g_cf (flushed g nd) = g_cf g /\ g_ota (flushed g nd) = g_ota g /\ g_metric (flushed g nd) = g_metric g /\
    g_dirty (flushed g nd) = g_dirty g /\
    g_sensors (flushed g nd) = zset k (woken nd) (g_sensors g) /\
    get_node (flushed g nd) k = Some (woken nd) /\
    (forall k', k' <> k -> get_node (flushed g nd) k' = get_node g k') /\
    (if cf_async (g_cf g)
     then g_log (flushed g nd) = g_log g ++ map ESend (flush_strings (tab g) nd) /\ g_jobs (flushed g nd) = g_jobs g
     else g_log (flushed g nd) = g_log g /\ g_jobs (flushed g nd) = g_jobs g ++ map JSend (flush_strings (tab g) nd)).
Proof.
  intros orc g k nd I G. pose proof (IdInv_of_Inv orc g I k nd G) as ID.
  assert (S : g_sensors (flushed g nd) = zset k (woken nd) (g_sensors g)).
  { unfold flushed. destruct (cf_async (g_cf g)); cbn; rewrite ID; reflexivity. }
  unfold get_node. rewrite S. unfold flushed.
  destruct (cf_async (g_cf g)); repeat (split; [reflexivity|]);
    (split; [rewrite GwLemmas.zassoc_zset, Z.eqb_refl; reflexivity|]);
    (split; [intros k' N; rewrite GwLemmas.zassoc_zset; destruct (Z.eqb_spec k' k); [contradiction|reflexivity]|]);
    split; reflexivity.
Qed.

Theorem C08_woken_fields :
  forall nd,
    n_queue (woken nd) = [] /\ n_new (woken nd) = n_new (init_smart_sleep nd) /\
    n_id (woken nd) = n_id nd /\ n_children (woken nd) = n_children nd /\ n_type (woken nd) = n_type nd /\
    n_sk_name (woken nd) = n_sk_name nd /\ n_sk_ver (woken nd) = n_sk_ver nd /\ n_batt (woken nd) = n_batt nd /\
    n_pver (woken nd) = n_pver nd /\ n_hb (woken nd) = n_hb nd /\ n_reboot (woken nd) = n_reboot nd /\
    (forall c vt, desired (woken nd) c vt = desired nd c vt) /\
    (forall c, zhas c (n_children nd) = true -> zhas c (n_new (woken nd)) = true) /\
    (exists ext, n_new (woken nd) = n_new nd ++ ext /\ Forall (fun e => snd e = []) ext).
Proof.
  intro nd. repeat (split; [reflexivity|]). split; [exact (init_desired nd)|]. split; [exact (init_has_slot nd)|].
  apply GwLemmas.add_slots_prefix.
Qed.

(* the prefix-emitting flush of the model (what Python does when create_message raises in the
   middle) and the exception-free one: they agree, and under the invariant neither raises *)
Theorem C08_flush_children_rel :
  forall orc g nd chs,
    match flush_children orc g nd chs with
    | Ok l => flush_children_pre orc g nd chs = (l, None)
    | Raise e => exists pre, flush_children_pre orc g nd chs = (pre, Some e)
    end.
Proof. exact flush_children_rel. Qed.

Theorem C08_flush_children_closed :
  forall orc g nd chs,
    Forall (fun cd => dv_ok orc (tab g) (n_id nd) (fst cd) (snd cd)) (n_new nd) ->
    flush_children orc g nd chs = Ok (map encode (children_msgs (tab g) nd chs)) /\
    flush_children_pre orc g nd chs = (map encode (children_msgs (tab g) nd chs), None).
Proof. intros orc g nd chs H. split; [apply flush_children_closed|apply flush_children_pre_closed]; exact H. Qed.

(* a wake-up announcement of a known node, through the dispatcher: never raises, no reply, the
   state is the flushed one (2.0 / 2.1: plus the heartbeat attribute and the alert) ... *)
Theorem C08_wake_logic :
  forall orc clock g l m nd, cfg_ok (g_cf g) -> Inv orc g -> QInv g ->
    decode l = Some m -> gvalidate orc g m = true -> wake_msg (tab g) m = true ->
    get_node g (m_node m) = Some nd ->
    exists h, sub_handler (tab g) (m_type m) (m_sub m) = Some h /\ (h = HHeartbeat \/ h = HPreSleep) /\
              logic orc clock g l = Ok (after_wake h g m nd, None).
Proof.
  intros orc clock g l m nd C I Q D V W G. pose proof (wake_type_internal g m C W) as TH.
  unfold wake_msg, wake_ts in W. rewrite TH in W.
  destruct (sub_handler (tab g) (m_type m) (m_sub m)) as [h|] eqn:SH; [|discriminate].
  exists h. split; [reflexivity|].
  assert (HH : h = HHeartbeat \/ h = HPreSleep) by (destruct h; try discriminate W; auto).
  split; [exact HH|].
  rewrite (GwLemmas.logic_handler orc clock g l m HInternal D V TH). unfold run_handler, handle_internal. rewrite SH.
  pose proof (C08_flushed_fields orc g (m_node m) nd I G) as (_ & _ & _ & _ & _ & GF & _).
  destruct HH as [-> | ->]; unfold run_leaf, handle_heartbeat_response, handle_pre_sleep;
    rewrite (GwLemmas.is_sensor_known g (m_node m) None nd G Logic.I); cbn [bind negb];
    rewrite G, (flush_spec orc g (m_node m) nd I Q G); cbn [bind]; [rewrite GF|]; reflexivity.
Qed.

(* ... and what leaves the gateway in that call is EXACTLY the withheld strings, each once, oldest
   first, followed by the set commands *)
Theorem C08_wake_outputs :
  forall orc h g m nd k, Inv orc g -> get_node g k = Some nd -> (h = HHeartbeat \/ h = HPreSleep) ->
    let g' := after_wake h g m nd in
    (exists d, g_log g' = g_log g ++ d /\
               sends_of d = if cf_async (g_cf g) then flush_strings (tab g) nd else []) /\
    g_jobs g' = g_jobs g ++ (if cf_async (g_cf g) then [] else map JSend (flush_strings (tab g) nd)).
Proof.
  intros orc h g m nd k I G HH. pose proof (C08_flushed_fields orc g k nd I G) as (_ & _ & _ & _ & _ & _ & _ & OUT).
  assert (B : (exists d, g_log (flushed g nd) = g_log g ++ d /\
                 sends_of d = if cf_async (g_cf g) then flush_strings (tab g) nd else []) /\
              g_jobs (flushed g nd) = g_jobs g ++ (if cf_async (g_cf g) then [] else map JSend (flush_strings (tab g) nd))).
  { destruct (cf_async (g_cf g)); destruct OUT as [L J]; split.
    - exists (map ESend (flush_strings (tab g) nd)). split; [exact L|apply sends_of_map].
    - rewrite app_nil_r. exact J.
    - exists []. rewrite app_nil_r. split; [exact L|reflexivity].
    - exact J. }
  destruct HH as [-> | ->]; cbn [after_wake]; [|exact B].
  (* 2.0 / 2.1: the alert that follows adds at most a callback event *)
  destruct B as [(d & L & S) J].
  set (g1 := put_node (flushed g nd) (set_hb (woken nd) (m_payload m))).
  assert (L1 : g_log g1 = g_log g ++ d) by exact L.
  assert (J1 : g_jobs g1 = g_jobs (flushed g nd)) by reflexivity.
  clearbody g1.
  destruct (GwLemmas.alert_frame g1 m) as (_ & _ & _ & JA & _). split; [|rewrite JA, J1; exact J].
  unfold alert. destruct (cf_callback (g_cf g1)).
  - exists (d ++ [ECallback m (proj (g_sensors g1))]). split.
    + destruct (cf_persist (g_cf g1)); cbn; rewrite L1, app_assoc; reflexivity.
    + rewrite sends_of_app. simpl. rewrite app_nil_r. exact S.
  - exists d. split; [destruct (cf_persist (g_cf g1)); exact L1|exact S].
Qed.

(* (a) set_child_value on a known child of a sleeping node, closed form: the value type must be an
   int() spelling, the set message must validate for the GATEWAY's version (else Invalid at call
   time), the child must have a slot (else ValueError), the message must validate for the NODE's
   version (an additional refusal); then Some v is stored under the INTEGER key, nothing else *)
Theorem C08_set_child_value_sleeping :
  forall orc g sid cid vt v mt a nd,
    get_node g sid = Some nd -> zhas cid (n_children nd) = true -> sleeping nd = true ->
    set_child_value orc g sid cid vt v mt a =
    match vt_int vt with
    | None => Raise ValueError
    | Some vti =>
        if gw_accepts orc g (n_id nd) cid vti v then
          match zassoc cid (n_new nd) with
          | None => Raise ValueError
          | Some dv => if node_accepts orc nd cid vti v then Ok (put_node g (store_desired nd cid vti v dv))
                       else Raise VolInvalid
          end
        else Raise VolInvalid
    end.
Proof. exact set_child_value_sleeping. Qed.

Theorem C08_store_desired_facts :
  forall nd cid vti v dv, zassoc cid (n_new nd) = Some dv ->
    let nd' := store_desired nd cid vti v dv in
    desired nd' cid vti = Some v /\
    (forall c vt, (c, vt) <> (cid, vti) -> desired nd' c vt = desired nd c vt) /\
    sleeping nd' = true /\ n_queue nd' = n_queue nd /\ n_children nd' = n_children nd /\ n_id nd' = n_id nd /\
    map fst (n_new nd') = map fst (n_new nd).
Proof.
  intros nd cid vti v dv D nd'. unfold nd', store_desired.
  split; [rewrite (desired_slot nd cid vti (Some v) dv cid vti D), !Z.eqb_refl; reflexivity|].
  split; [|split; [apply sleeping_zset|repeat (split; [reflexivity|])]].
  - intros c vt N. rewrite (desired_slot nd cid vti (Some v) dv c vt D).
    destruct (Z.eqb_spec c cid) as [->|NC]; [|reflexivity].
    destruct (Z.eqb_spec vt vti) as [->|NV]; [contradiction N|]; reflexivity.
  - apply zset_keys. unfold zhas. rewrite D. reflexivity.
Qed.

(* value types given as "2" and as 2 are the same key: the whole call behaves identically *)
Theorem C08_vt_key_normalised :
  forall orc g sid cid vt1 vt2 v mt a, vt_int vt1 = vt_int vt2 ->
    set_child_value orc g sid cid vt1 v mt a = set_child_value orc g sid cid vt2 v mt a.
Proof. exact vt_key_normalised. Qed.
Theorem C08_vt_key_str_int : forall z, vt_int (VtStr (print z)) = vt_int (VtInt z).
Proof. intro z. apply PyIntFacts.parse_print. Qed.

(* (b) an accepted report (set message from a known child): the node becomes update_child_value,
   whose entry (c, vt) is None (confirmed), no other desired entry is touched, the value is
   recorded as reported *)
Theorem C08_handle_set_known :
  forall g m nd,
    get_node g (m_node m) = Some nd -> zhas (m_child m) (n_children nd) = true ->
    wire_ok (m_payload m) = true -> has_member (vt_internal_members (tab g)) "I_REBOOT" = true ->
    exists reply,
      handle_set g m =
      Ok (alert (put_node g (update_child_value nd (m_child m) (m_sub m) (m_payload m))) m, reply) /\
      (n_reboot nd = false -> reply = None).
Proof. exact handle_set_known. Qed.

Theorem C08_update_child_value_facts :
  forall nd c vt p, zhas c (n_children nd) = true ->
    let nd' := update_child_value nd c vt p in
    desired nd' c vt = None /\
    (forall c' vt', (c', vt') <> (c, vt) -> desired nd' c' vt' = desired nd c' vt') /\
    reported nd' c vt = Some (PS p) /\
    n_queue nd' = n_queue nd /\ n_id nd' = n_id nd /\ sleeping nd' = sleeping nd /\
    map fst (n_new nd') = map fst (n_new nd).
Proof. exact update_child_value_facts. Qed.

(* the same at the level of a step of the machine (arriving line / pumped line) *)
Theorem C08_report_clears_desired :
  forall orc clock g o n c vt nd,
    cfg_ok (g_cf g) -> Inv orc g -> QInv g -> op_ok o ->
    op_cause orc g o = CReport n c vt -> get_node g n = Some nd -> zhas c (n_children nd) = true ->
    exists nd', get_node (step orc clock g o) n = Some nd' /\ desired nd' c vt = None /\
                has_reported nd' c vt /\
                (forall c' vt', (c', vt') <> (c, vt) -> desired nd' c' vt' = desired nd c' vt').
Proof.
  intros orc clock g o n c vt nd C I Q O CZ G ZH.
  destruct o as [l| |s c0 vt0 v0 mt a| |]; cbn [op_cause step] in *; try discriminate.
  - unfold recv. destruct (cf_async (g_cf g)); [|discriminate].
    destruct (logic_total orc clock g l C I) as (g1 & r & E & _). rewrite E.
    exact (logic_report orc clock g l n c vt nd g1 r C I CZ G ZH E).
  - unfold pump. destruct (g_jobs g) as [|[l|l] r]; try discriminate.
    destruct (logic_total orc clock (set_jobs g r) l C (Inv_set_jobs orc g r I)) as (g1 & rep & E & _). rewrite E.
    exact (logic_report orc clock (set_jobs g r) l n c vt nd g1 rep C (Inv_set_jobs orc g r I) CZ G ZH E).
  - unfold desire_cause in CZ. destruct (vt_int vt0); discriminate.
Qed.

(* reading of the two causes: a step processes an accepted set message from (n, c, vt) / is the
   controller call for (n, c, int(vt')) *)
Theorem C08_cause_report :
  forall orc g o n c vt, cfg_ok (g_cf g) ->
    (op_cause orc g o = CReport n c vt <->
     exists l m, processed g o = Some l /\ decode l = Some m /\ gvalidate orc g m = true /\
                 m_type m = 1 /\ m_node m = n /\ m_child m = c /\ m_sub m = vt).
Proof.
  intros orc g o n c vt C. rewrite op_cause_processed. destruct (processed g o) as [l|].
  - rewrite (line_cause_report orc g l n c vt C).
    split; [intros (m & H); exists l, m; auto|intros (l0 & m & E & H); inversion E; subst; eauto].
  - split; [|intros (l0 & m & E & _); discriminate].
    destruct o; try discriminate. unfold desire_cause. destruct (vt_int vt0); discriminate.
Qed.
Theorem C08_cause_desire :
  forall orc g o n c vt,
    op_cause orc g o = CDesire n c vt <->
    exists vt' v mt a, o = SetChild n c vt' v mt a /\ vt_int vt' = Some vt.
Proof.
  intros orc g o n c vt. rewrite op_cause_processed. destruct (processed g o) as [l|] eqn:P.
  - split; [intro H; destruct (line_cause_not_desire orc g l n c vt H)|].
    intros (vt' & v & mt & a & -> & _). discriminate P.
  - unfold desire_cause. destruct o; try (split; [discriminate|intros (? & ? & ? & ? & H & _); discriminate H]). split.
    + destruct (vt_int vt0) as [z|] eqn:E; [|discriminate]. intro H. inversion H; subst. eauto 10.
    + intros (vt' & v0 & mt' & a' & H & E). inversion H; subst. rewrite E. reflexivity.
Qed.

(* (c) between (a) and the next (b): after an accepted call, in EVERY state reached by a history
   without a report of (n, c, vt) and without a new call for it: the value is still pending,
   requests are answered with it, the wake-up flush succeeds and - provided the node has
   reported that value type - contains the set command *)
Theorem C08_desired_resent_until_reported :
  forall orc clock g n c vt vti v mt a g1 nd ops,
    cfg_ok (g_cf g) -> Inv orc g -> QInv g -> CInv g -> Forall op_ok ops ->
    get_node g n = Some nd -> zhas c (n_children nd) = true -> sleeping nd = true ->
    set_child_value orc g n c vt v mt a = Ok g1 -> vt_int vt = Some vti ->
    quiet orc clock (fun cz => cz = CReport n c vti \/ cz = CDesire n c vti) g1 ops ->
    let g2 := run orc clock g1 ops in
    exists nd2, get_node g2 n = Some nd2 /\ sleeping nd2 = true /\ zhas c (n_children nd2) = true /\
      desired nd2 c vti = Some v /\
      get_desired_value nd2 c vti = Some v /\
      handle_smartsleep orc g2 nd2 = Ok (flushed g2 nd2) /\
      (has_reported nd2 c vti -> In (encode (set_msg_of (tab g) n c vti v)) (flush_strings (tab g2) nd2)).
Proof.
  intros orc clock g n c vt vti v mt a g1 nd ops C I Q K F G ZH SL E VI QU g2.
  pose proof (facts_of_cfg g C) as FA.
  pose proof (set_child_value_ok orc g n c vt v mt a FA I) as OK1. rewrite E in OK1. destruct OK1 as [I1 C1].
  pose proof (t_nodes _ _ _ (set_child_value_trans orc g n c vt v mt a g1 FA I E)) as T1.
  pose proof (nodes_step_QInv _ _ _ T1 Q) as Q1.
  destruct (set_child_value_sleeping_silent orc g n c vt v mt a nd g1 G ZH SL E)
    as (_ & _ & _ & _ & _ & _ & vti' & dv & VI' & D & _ & _ & E1).
  rewrite VI in VI'. inversion VI'; subst vti'.
  destruct (C08_store_desired_facts nd c vti v dv D) as (DS & _ & SL1 & _ & CH1 & ID1 & _).
  assert (G1 : get_node g1 n = Some (store_desired nd c vti v dv)).
  { rewrite E1, GwLemmas.get_node_put, ID1, (IdInv_of_Inv orc g I n nd G), Z.eqb_refl. reflexivity. }
  rewrite <- C1 in C.
  destruct (run_node orc clock ops g1 n _ C I1 Q1 F G1) as (nd2 & G2 & S2 & R2 & Z2 & DA & _).
  destruct (run_sleep_inv orc clock ops g1 C I1 Q1 F) as (I2 & Q2 & C2 & K2).
  exists nd2. split; [exact G2|]. split; [apply S2; exact SL1|].
  assert (ZH2 : zhas c (n_children nd2) = true) by (apply Z2; rewrite CH1; exact ZH).
  split; [exact ZH2|].
  assert (D2 : desired nd2 c vti = Some v) by (rewrite (DA c vti QU); exact DS).
  split; [exact D2|]. split; [|split].
  - rewrite get_desired_value_closed, D2. unfold zhas in ZH2.
    destruct (zassoc c (n_children nd2)); [reflexivity|discriminate].
  - apply (flush_spec orc _ n); assumption.
  - intro HR. assert (TT : tab g2 = tab g) by (unfold tab, g2; rewrite C2, C1; reflexivity).
    rewrite TT, <- (IdInv_of_Inv orc _ I2 n nd2 G2).
    apply desired_in_flush; [exact (K2 (nodes_step_CInv _ _ _ T1 K) _ _ G2)|exact HR|exact D2].
Qed.

(* ... a desired value for a value type the node never reported is NOT sent (the property says
   "has reported before") *)
Theorem C08_unreported_not_sent :
  forall t nd c vt,
    (forall k ch, In (k, ch) (n_children nd) -> c_id ch = c -> zhas vt (c_values ch) = false) ->
    forall m, In m (desired_msgs t (init_smart_sleep nd)) -> ~ (m_child m = c /\ m_sub m = vt).
Proof.
  intros t nd c vt NR m H [E1 E2]. apply In_desired_msgs in H as (k & ch & vt' & x & v & IN & INV & _ & ->).
  cbn in E1, E2. subst vt'.
  pose proof (In_zhas _ _ _ INV) as Z. rewrite (NR k ch IN E1) in Z. discriminate Z.
Qed.

(* ... and never after (b): once the entry is None it stays None, and no flush contains a set
   command for (c, vt), in every state reached without a new call for (n, c, vt) *)
Theorem C08_cleared_until_new_desire :
  forall orc clock g n c vt nd ops,
    cfg_ok (g_cf g) -> Inv orc g -> QInv g -> Forall op_ok ops ->
    get_node g n = Some nd -> desired nd c vt = None ->
    quiet orc clock (fun cz => cz = CDesire n c vt) g ops ->
    let g2 := run orc clock g ops in
    exists nd2, get_node g2 n = Some nd2 /\ desired nd2 c vt = None /\
      handle_smartsleep orc g2 nd2 = Ok (flushed g2 nd2) /\
      forall m, In m (desired_msgs (tab g2) (init_smart_sleep nd2)) -> ~ (m_child m = c /\ m_sub m = vt).
Proof. exact cleared_until_new_desire. Qed.

(* every set command of a flush IS a pending desired value *)
Theorem C08_flush_sets_are_desired :
  forall t nd m, In m (desired_msgs t (init_smart_sleep nd)) ->
    exists v, desired nd (m_child m) (m_sub m) = Some v /\ m = set_msg_of t (n_id nd) (m_child m) (m_sub m) v.
Proof. exact flush_sets_are_desired. Qed.

(* (d) value requests: Sensor.get_desired_value is total; the desired value while one is pending,
   else the reported value, else nothing *)
Theorem C08_get_desired_value_closed :
  forall nd c vt,
    get_desired_value nd c vt =
    match zassoc c (n_children nd) with
    | None => None
    | Some ch => match desired nd c vt with Some v => Some v | None => zassoc vt (c_values ch) end
    end.
Proof. exact get_desired_value_closed. Qed.

Theorem C08_handle_req_known :
  forall g m nd,
    get_node g (m_node m) = Some nd -> zhas (m_child m) (n_children nd) = true -> wire_ok (m_payload m) = true ->
    handle_req g m = Ok (g, option_map (req_reply (tab g) m) (get_desired_value nd (m_child m) (m_sub m))).
Proof.
  intros g m nd G ZH W. unfold handle_req.
  rewrite (GwLemmas.is_sensor_known g (m_node m) (Some (m_child m)) nd G ZH). cbn [bind negb]. rewrite G.
  destruct (get_desired_value nd (m_child m) (m_sub m)) as [v|]; [|reflexivity].
  rewrite CodecProofs.copy_spec by exact W. reflexivity.
Qed.

(* through the dispatcher, for a SLEEPING node: the reply is withheld (appended to the queue) *)
Theorem C08_req_logic_sleeping :
  forall orc clock g l m nd, cfg_ok (g_cf g) ->
    decode l = Some m -> gvalidate orc g m = true -> m_type m = 2 ->
    get_node g (m_node m) = Some nd -> zhas (m_child m) (n_children nd) = true -> sleeping nd = true ->
    logic orc clock g l =
    Ok (match get_desired_value nd (m_child m) (m_sub m) with
        | Some v => enqueue g nd (encode (req_reply (tab g) m v))
        | None => g
        end, None).
Proof.
  intros orc clock g l m nd C D V TY G ZH SL.
  destruct (type_handler_cases g 2 (facts_of_cfg g C) eq_refl) as [[E _]|[[E _]|[[_ TH]|[[E _]|[E _]]]]];
    try discriminate E.
  rewrite <- TY in TH.
  rewrite (GwLemmas.logic_handler orc clock g l m HReq D V TH). unfold run_handler.
  rewrite (C08_handle_req_known g m nd G ZH (CodecProofs.decoded_payload_wire_ok _ _ D)). cbn [bind].
  destruct (get_desired_value nd (m_child m) (m_sub m)) as [v|]; cbn [option_map route_opt]; [|reflexivity].
  (* the reply is a set command: neither a presentation nor a stream message *)
  destruct C as [ver [T _]].
  unfold route. cbn [req_reply m_type m_node]. unfold tab. rewrite T, k_presentation, k_set, k_stream.
  change (1 =? 0) with false. change (1 =? 4) with false. cbv iota. rewrite G, SL. reflexivity.
Qed.

(* after any accepted set_child_value and any later history, the flush of every node returns Ok
   (with the closed form above) and every line is processed without raising; nothing is assumed
   about the node's own protocol version n_pver (equal / older / never presented: it only enters
   through node_accepts, an additional refusal at call time) *)
Theorem C08_accepted_implies_deliverable :
  forall orc clock g sid cid vt v mt a g1 ops,
    cfg_ok (g_cf g) -> Inv orc g -> QInv g -> Forall op_ok ops ->
    set_child_value orc g sid cid vt v mt a = Ok g1 ->
    let g2 := run orc clock g1 ops in
    (forall k nd, get_node g2 k = Some nd -> handle_smartsleep orc g2 nd = Ok (flushed g2 nd)) /\
    (forall l, exists g3 r, logic orc clock g2 l = Ok (g3, r)).
Proof. exact accepted_implies_deliverable. Qed.

(* a value that is not valid for the gateway's version is refused at call time: Invalid, state
   unchanged (the step only records the exception) *)
Theorem C08_refused_at_call_time :
  forall orc clock g sid cid vt vti v mt a nd,
    get_node g sid = Some nd -> zhas cid (n_children nd) = true -> sleeping nd = true ->
    vt_int vt = Some vti -> gw_accepts orc g (n_id nd) cid vti v = false ->
    set_child_value orc g sid cid vt v mt a = Raise VolInvalid /\
    step orc clock g (SetChild sid cid vt v mt a) = emit g (ERaise VolInvalid).
Proof.
  intros orc clock g sid cid vt vti v mt a nd G ZH SL VI GA.
  assert (E : set_child_value orc g sid cid vt v mt a = Raise VolInvalid).
  { rewrite (set_child_value_sleeping orc g sid cid vt v mt a nd G ZH SL), VI, GA. reflexivity. }
  split; [exact E|]. cbn [step]. rewrite E. reflexivity.
Qed.

(* a child presented to a known node (sleeping or not) is appended; the desired state is untouched:
   a child presented after the first wake-up has no slot *)
Theorem C08_presentation_late_child :
  forall orc g m nd, m_child m <> system_child_id ->
    get_node g (m_node m) = Some nd -> zhas (m_child m) (n_children nd) = false ->
    handle_presentation orc g m =
    Ok (alert (put_node g (with_children nd (n_children nd ++ [(m_child m, mkChild (m_child m) (m_sub m) (m_payload m) [])]))) m,
        Some m).
Proof.
  intros orc g m nd NS G ZH. unfold handle_presentation.
  destruct (Z.eqb_spec (m_child m) system_child_id) as [E|_]; [contradiction|].
  rewrite (GwLemmas.is_sensor_known g (m_node m) None nd G Logic.I). cbn [bind negb]. rewrite G, ZH. reflexivity.
Qed.

(* requests for it are answered from the reported values (no KeyError) *)
Theorem C08_late_child_req :
  forall nd c vt, zassoc c (n_new nd) = None -> get_desired_value nd c vt = reported nd c vt.
Proof. intros nd c vt D. rewrite get_desired_value_closed. unfold desired, reported. rewrite D. reflexivity. Qed.

(* the controller call for it is refused at call time (ValueError when the value itself is valid) *)
Theorem C08_late_child_set_refused :
  forall orc g sid cid vt v mt a nd,
    get_node g sid = Some nd -> zhas cid (n_children nd) = true -> sleeping nd = true ->
    zassoc cid (n_new nd) = None ->
    exists e, set_child_value orc g sid cid vt v mt a = Raise e /\
              (forall vti, vt_int vt = Some vti -> gw_accepts orc g (n_id nd) cid vti v = true -> e = ValueError).
Proof.
  intros orc g sid cid vt v mt a nd G ZH SL D. rewrite (set_child_value_sleeping orc g sid cid vt v mt a nd G ZH SL), D.
  destruct (vt_int vt) as [vti|]; [|exists ValueError; split; [reflexivity|discriminate]].
  destruct (gw_accepts orc g (n_id nd) cid vti v) eqn:GA; [exists ValueError; auto|].
  exists VolInvalid. split; [reflexivity|]. intros x H H2. inversion H; subst x. rewrite GA in H2. discriminate H2.
Qed.

(* at the next wake-up it gets its (empty) slot; existing slots keep place and content *)
Theorem C08_late_child_gets_slot :
  forall nd c, zhas c (n_children nd) = true -> zassoc c (n_new nd) = None ->
    zassoc c (n_new (woken nd)) = Some [] /\
    (forall c' dv, zassoc c' (n_new nd) = Some dv -> zassoc c' (n_new (woken nd)) = Some dv).
Proof.
  intros nd c ZH D. change (n_new (woken nd)) with (n_new (init_smart_sleep nd)).
  split; [rewrite init_slot, D, ZH; reflexivity|intros c' dv H; rewrite init_slot, H; reflexivity].
Qed.

(* configurations and histories: Proofs/SleepExamples.v (2.2 gateway; ex_h1: node 1 and child 1
   presented, value type 2 reported, first wake-up "1;255;3;0;32;500": node 1 sleeps) *)
(* the life cycle: nothing at the first wake-up; the call is silent; the set command appears at
   EVERY wake-up until the node reports the value type; none afterwards *)
Example C08_example_lifecycle :
  let run' := run ex_orc 0 (gw_init ex_cfA) in
  g_log (run' ex_h1) = [] /\ sleeping (ex_node (run' ex_h1) 1) = true /\
  g_log (run' (ex_h1 ++ [ex_set (VtInt 2) "1"])) = [] /\
  desired (ex_node (run' (ex_h1 ++ [ex_set (VtInt 2) "1"])) 1) 1 2 = Some (PS (s2p "1")) /\
  g_log (run' (ex_h1 ++ [ex_set (VtInt 2) "1"; ex_wake1])) = [ESend (ex_line "1;1;1;0;2;1")] /\
  g_log (run' (ex_h1 ++ [ex_set (VtInt 2) "1"; ex_wake1; ex_wake1])) =
    [ESend (ex_line "1;1;1;0;2;1"); ESend (ex_line "1;1;1;0;2;1")] /\
  g_log (run' (ex_h1 ++ [ex_set (VtInt 2) "1"; ex_wake1; ex_R "1;1;1;0;2;1"; ex_wake1])) =
    [ESend (ex_line "1;1;1;0;2;1")] /\
  desired (ex_node (run' (ex_h1 ++ [ex_set (VtInt 2) "1"; ex_wake1; ex_R "1;1;1;0;2;1"])) 1) 1 2 = None.
Proof.
  (* the states the histories have in common are named, so that each is evaluated once *)
  intro run'. unfold run', run. rewrite !fold_left_app.
  set (g1 := fold_left (step ex_orc 0) ex_h1 (gw_init ex_cfA)). cbn [fold_left].
  set (g2 := step ex_orc 0 g1 (ex_set (VtInt 2) "1")).
  set (g3 := step ex_orc 0 g2 ex_wake1).
  set (g4 := step ex_orc 0 g3 (ex_R "1;1;1;0;2;1")).
  vm_compute. repeat split; reflexivity.
Qed.

(* the value type given as the string "2" behaves the same *)
Example C08_example_vt_str :
  run ex_orc 0 (gw_init ex_cfA) (ex_h1 ++ [ex_set (VtStr (s2p "2")) "1"; ex_wake1]) =
  run ex_orc 0 (gw_init ex_cfA) (ex_h1 ++ [ex_set (VtInt 2) "1"; ex_wake1]).
Proof.
  unfold run. rewrite !fold_left_app. cbn [fold_left]. apply (f_equal (fun g => step ex_orc 0 g ex_wake1)).
  unfold ex_set. cbn [step]. rewrite (vt_key_normalised ex_orc _ 1 1 (VtStr (s2p "2")) (VtInt 2)); reflexivity.
Qed.

(* withheld replies leave oldest first, before the set commands; a request is answered with the
   pending desired value *)
Example C08_example_order :
  g_log (run ex_orc 0 (gw_init ex_cfA)
           (ex_h1 ++ [ex_R "1;1;2;0;2;"; ex_set (VtInt 2) "1"; ex_R "1;1;2;0;2;"; ex_wake1])) =
  [ESend (ex_line "1;1;1;0;2;0"); ESend (ex_line "1;1;1;0;2;1"); ESend (ex_line "1;1;1;0;2;1")].
Proof. vm_compute. reflexivity. Qed.

(* threaded flavour: the burst is queued in that order *)
Example C08_example_threaded :
  let g := run ex_orc 0 (gw_init ex_cfT)
             (ex_pumped (ex_h1 ++ [ex_R "1;1;2;0;2;"; ex_set (VtInt 2) "1"]) ++ [ex_wake1; Pump]) in
  g_jobs g = [JSend (ex_line "1;1;1;0;2;0"); JSend (ex_line "1;1;1;0;2;1")] /\ g_log g = [].
Proof. vm_compute. split; reflexivity. Qed.

(* a desired value for a value type the node never reported (3) is stored but not sent *)
Example C08_example_unreported :
  let g := run ex_orc 0 (gw_init ex_cfA) (ex_h1 ++ [ex_set (VtInt 3) "50"; ex_wake1]) in
  g_log g = [] /\ desired (ex_node g 1) 1 3 = Some (PS (s2p "50")).
Proof. vm_compute. split; reflexivity. Qed.

(* refused at call time (the D4 scenario): a node that presented protocol 1.4 on a 2.2 gateway,
   value type 22: "1" is valid for 1.4 (V_HEATER_SW) but not for 2.2 (V_HVAC_SPEED): Invalid at the
   call, nothing stored; "Auto" is valid for the gateway but not for the node: refused as well *)
Example C08_example_refused :
  let g := run ex_orc 0 (gw_init ex_cfA) [ex_R "1;255;0;0;17;1.4"; ex_R "1;1;0;0;3;"; ex_wake1] in
  sleeping (ex_node g 1) = true /\
  set_child_value ex_orc g 1 1 (VtInt 22) (PS (s2p "1")) None None = Raise VolInvalid /\
  set_child_value ex_orc g 1 1 (VtInt 22) (PS (s2p "Auto")) None None = Raise VolInvalid /\
  set_child_value ex_orc g 1 1 (VtStr (s2p "x")) (PS (s2p "1")) None None = Raise ValueError /\
  g_sensors (step ex_orc 0 g (SetChild 1 1 (VtInt 22) (PS (s2p "1")) None None)) = g_sensors g.
Proof. vm_compute. repeat split; reflexivity. Qed.

(* a late child: presented after the first wake-up; request answered from the reported value, the
   call refused with ValueError, a slot after the next wake-up, then the call is accepted *)
Example C08_example_late_child :
  let late := ex_h1 ++ [ex_R "1;2;0;0;3;"; ex_R "1;2;1;0;2;1"] in
  let g := run ex_orc 0 (gw_init ex_cfA) late in
  zassoc 2 (n_new (ex_node g 1)) = None /\
  ex_node (step ex_orc 0 g (ex_R "1;2;2;0;2;")) 1 =
    with_queue (ex_node g 1) [ex_line "1;2;1;0;2;1"] /\
  set_child_value ex_orc g 1 2 (VtInt 2) (PS (s2p "0")) None None = Raise ValueError /\
  (let g' := step ex_orc 0 g ex_wake1 in
   zassoc 2 (n_new (ex_node g' 1)) = Some [] /\
   is_ok (set_child_value ex_orc g' 1 2 (VtInt 2) (PS (s2p "0")) None None) = true).
Proof. vm_compute. repeat split; reflexivity. Qed.

(* observation (consistent with the property text, "has reported before"): a desired value for a
   value type the node has never reported is accepted, never sent, and the node's FIRST report of
   that type clears it - it is never delivered *)
Example C08_example_unreported_never_delivered :
  let g := run ex_orc 0 (gw_init ex_cfA)
               (ex_h1 ++ [ex_set (VtInt 3) "50"; ex_wake1; ex_R "1;1;1;0;3;10"; ex_wake1]) in
  g_log g = [] /\ desired (ex_node g 1) 1 3 = None /\ reported (ex_node g 1) 1 3 = Some (PS (s2p "10")).
Proof. vm_compute. repeat split; reflexivity. Qed.

(* the premises of C08_desired_resent_until_reported are satisfiable by a non-trivial history:
   after the accepted call, a wake-up, a value request and a report of ANOTHER value type (3) *)
Example C08_example_premises :
  let g := run ex_orc 0 (gw_init ex_cfA) ex_h1 in
  let ops := [ex_wake1; ex_R "1;1;2;0;2;"; ex_R "1;1;1;0;3;7"] in
  cfg_ok (g_cf g) /\ sleeping (ex_node g 1) = true /\ zhas 1 (n_children (ex_node g 1)) = true /\
  get_node g 1 = Some (ex_node g 1) /\
  exists g1, set_child_value ex_orc g 1 1 (VtInt 2) (PS (s2p "1")) None None = Ok g1 /\
             quiet ex_orc 0 (fun cz => cz = CReport 1 1 2 \/ cz = CDesire 1 1 2) g1 ops /\
             has_reported (ex_node (run ex_orc 0 g1 ops) 1) 1 2.
Proof.
  intros g ops.
  assert (C : cfg_ok ex_cfA) by (exists V22; unfold ex_cfA; cbn [cf_tab cf_ge20 tab_of ge20]; split; reflexivity).
  split.
  { destruct (reachable_sleep_inv ex_orc 0 ex_cfA ex_h1 C) as (_ & _ & _ & E); [repeat constructor|].
    fold g in E. rewrite E. exact C. }
  split; [vm_compute; reflexivity|]. split; [vm_compute; reflexivity|]. split; [vm_compute; reflexivity|].
  (* the state after the call is named by the step, not written out: its normal form holds the whole table *)
  exists (step ex_orc 0 g (ex_set (VtInt 2) "1")).
  split; [apply accepted_call_is_step; vm_compute; reflexivity|]. split; vm_compute.
  - repeat split; intros [H|H]; discriminate H.
  - eexists. split; reflexivity.
Qed.


Print Assumptions C08_reachable_invariants.
Print Assumptions C08_flush_strings_def.
Print Assumptions C08_desired_msgs_def.
Print Assumptions C08_desired_msgs_membership.
Print Assumptions C08_flush_spec.
Print Assumptions C08_flush_calls.
Print Assumptions C08_flushed_fields.
Print Assumptions C08_woken_fields.
Print Assumptions C08_flush_children_rel.
Print Assumptions C08_flush_children_closed.
Print Assumptions C08_wake_logic.
Print Assumptions C08_wake_outputs.
Print Assumptions C08_set_child_value_sleeping.
Print Assumptions C08_store_desired_facts.
Print Assumptions C08_vt_key_normalised.
Print Assumptions C08_vt_key_str_int.
Print Assumptions C08_handle_set_known.
Print Assumptions C08_update_child_value_facts.
Print Assumptions C08_report_clears_desired.
Print Assumptions C08_cause_report.
Print Assumptions C08_cause_desire.
Print Assumptions C08_desired_resent_until_reported.
Print Assumptions C08_unreported_not_sent.
Print Assumptions C08_cleared_until_new_desire.
Print Assumptions C08_flush_sets_are_desired.
Print Assumptions C08_get_desired_value_closed.
Print Assumptions C08_handle_req_known.
Print Assumptions C08_req_logic_sleeping.
Print Assumptions C08_accepted_implies_deliverable.
Print Assumptions C08_refused_at_call_time.
Print Assumptions C08_presentation_late_child.
Print Assumptions C08_late_child_req.
Print Assumptions C08_late_child_set_refused.
Print Assumptions C08_late_child_gets_slot.
