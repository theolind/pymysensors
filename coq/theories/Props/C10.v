(* C10 - OTA sessions are gated, restartable and terminate.  The general results (the footprint
   of a line and of a step on sessions and reboot flags, the simulation of the two request
   handlers, the classification of reply lines, the update call as a function of its key) are in
   Proofs/OtaSessionProofs.v; most theorems below are their corollaries.

   Machine: Model/Gateway.v (record ota: o_requested / o_unstarted / o_started / o_fw;
   ota_get_fw, respond_fw_config, respond_fw, update_fw, handle_stream, handle_set,
   handle_presentation, run_leaf, logic, step, run) over the GENERATED tables and registry;
   byte level: Model/Hex.v, Model/Ota.v.  Reference automaton: Spec/OtaSession.v
   (Idle | Requested k | Offered k | Fetching k; inputs Update k, CfgReq, BlkReq k' i,
   Malformed; outputs CfgResp k, BlkResp k' i, none).  Oracles and clock are universally
   quantified.  Definitions used in the statements (Proofs/OtaSessionProofs.v):

     abs o n            which of the three stores holds node n (Requested / Offered / Fetching / Idle)
     sess_inv o         the three stores have unique keys and at most one of them holds a node
     ids_ok g           every node object is filed under its own id;  SInv g = sess_inv /\ ids_ok
     fw_avail o         an image is stored for the key of every session that is not Idle
     known g n          n is a key of gateway.sensors;  reboot_flag g n = sensors[n].reboot (false if unknown)
     stream_input m     the automaton input of a stream message: sub-type 0 -> CfgReq when the payload is
                        the hex of 5 words else Malformed; sub-type 2 -> BlkReq (t,v) i when it is the hex
                        of 3 words else Malformed; other sub-types -> none
     offer_reply fws m out   the message an automaton output becomes: CfgResp (t,v) -> sub-type 1 with
                        payload fw_config_payload t v f, BlkResp (t,v) i -> sub-type 3 with payload
                        fw_response_payload t v i f, f the image stored for (t,v); nothing when no image is
                        stored for that key; a packing error (struct.error) propagates
     update_key g ft fv bin  Some (t,v) iff the update call schedules: int(type)=t, int(version)=v, both in
                        0..65535, and an image is given (non-empty) or already stored for (t,v)
     line_of g o        the line the dispatcher runs on in step o (Recv in the asyncio flavour, Pump with a
                        queued line in the threaded flavour);  schedules / presents / request_of: what step o
                        means for node n (scheduling update call / accepted node presentation / stream request)
     hex_request_ok s w      s is exactly 4*w hexadecimal digits (either case), nothing else *)
From Coq Require Import List NArith ZArith Bool String.
From PMS Require Import Base.PyStr Base.Exn Model.Codec Model.TableTypes Gen.Tables Model.Validate
  Model.Oracles Model.Hex Model.Ota Model.Gateway Spec.SerialApi Spec.OtaSession
  Proofs.HexProofs Proofs.GwLemmas Proofs.GwInv Proofs.OtaSessionProofs.
Import ListNotations.
Open Scope Z_scope.

(* the automaton of Spec/OtaSession.v has the shape the property asks for: the config response
   is repeated until the first block request and then withheld; Fetching absorbs every input
   but Update; Update restarts from any state; Malformed is a no-op *)
Theorem C10_spec_progress :
  forall k k' i, srun (Requested k) [CfgReq; CfgReq; BlkReq k' i; CfgReq] =
                 (Fetching k, [CfgResp k; CfgResp k; BlkResp k' i; NoOut]).
Proof. reflexivity. Qed.
Theorem C10_spec_no_reflash :
  forall k is, forallb (fun i => negb (is_update i)) is = true ->
    fst (srun (Fetching k) is) = Fetching k /\
    forallb (fun o => negb (is_cfg_resp o)) (snd (srun (Fetching k) is)) = true.
Proof.
  intros k is. induction is as [|i r IH]; intro H; [split; reflexivity|].
  cbn [forallb] in H. apply andb_true_iff in H as [H1 H2]. destruct (IH H2) as [A B].
  destruct i as [x| |x b|]; [discriminate H1| | |]; cbn [srun sstep];
    destruct (srun (Fetching k) r) as [s2 os]; cbn [fst snd forallb] in *; split; auto.
Qed.
Theorem C10_spec_restart_and_malformed :
  forall s k, fst (sstep s (Update k)) = Requested k /\ sstep s Malformed = (s, NoOut).
Proof. intros s k. split; [apply spec_restart|apply spec_malformed]. Qed.

(* under the invariant, abs is the graph of "store X holds n": it does not depend on the order
   in which the stores are inspected *)
Theorem C10_abs_well_defined :
  forall o n, sess_inv o ->
    (forall k, abs o n = Requested k <-> zassoc n (o_requested o) = Some k) /\
    (forall k, abs o n = Offered k <-> zassoc n (o_unstarted o) = Some k) /\
    (forall k, abs o n = Fetching k <-> zassoc n (o_started o) = Some k) /\
    (abs o n = Idle <-> zassoc n (o_requested o) = None /\ zassoc n (o_unstarted o) = None /\
                        zassoc n (o_started o) = None).
Proof.
  intros o n (_ & _ & _ & E). destruct (E n) as (A & B & C). unfold abs.
  destruct (zassoc n (o_requested o)), (zassoc n (o_unstarted o)), (zassoc n (o_started o));
    try (destruct A; discriminate); try (destruct B; discriminate); try (destruct C; discriminate).
  all: repeat split; try intros (? & ? & ?); intros; unfold fwkey in *; congruence.
Qed.

(* every state reachable from a fresh gateway by ANY history (any lines, pump iterations,
   set_child_value / update_fw / metric calls, both task flavours, all five configurations)
   satisfies the invariant, and an image is stored for the key of every scheduled session *)
Theorem C10_reachable_invariant :
  forall orc clock cf ops, cfg_ok cf ->
    let g := run orc clock (gw_init cf) ops in
    sess_inv (g_ota g) /\ ids_ok g /\ fw_avail (g_ota g) /\ g_cf g = cf.
Proof. exact reachable_invariant. Qed.

(* one step keeps the invariant and moves every session either by a non-update input of the
   automaton or - only in an update call that names the node while it is known and has a key -
   to Requested *)
Theorem C10_step_invariant :
  forall orc clock g o, cfg_ok (g_cf g) -> SInv g ->
    SInv (step orc clock g o) /\ g_cf (step orc clock g o) = g_cf g /\
    (forall n, known g n = true -> known (step orc clock g o) n = true) /\
    fw_after g o (o_fw (g_ota (step orc clock g o))) /\
    forall n, moved g o n (abs (g_ota g) n) (abs (g_ota (step orc clock g o)) n).
Proof. exact step_moved. Qed.

(* session_refines.
   An accepted stream message (type 4) of sub-type 0 / 2 from a KNOWN node: the dispatcher does
   exactly the automaton step for that node - same next state, reply = the automaton's output
   (config response for the SCHEDULED key; block response for the REQUESTED key and block; no
   reply, but the same state change, when no image is stored for that key) - every other
   session, the firmware dictionary, the sensors, the job queue are untouched, and log / dirty
   flag change exactly as by the callback alert of handle_stream *)
Theorem C10_session_refines_request :
  forall orc clock g l m i,
    cfg_ok (g_cf g) -> sess_inv (g_ota g) ->
    decode l = Some m -> gvalidate orc g m = true -> m_type m = 4 -> known g (m_node m) = true ->
    stream_input m = Some i ->
    let so := sstep (abs (g_ota g) (m_node m)) i in
    exists g',
      logic orc clock g l =
        (do rm <- offer_reply (o_fw (g_ota g)) m (snd so); Ok (g', option_map encode rm)) /\
      sess_inv (g_ota g') /\ o_fw (g_ota g') = o_fw (g_ota g) /\
      abs (g_ota g') (m_node m) = fst so /\
      (forall n, n <> m_node m -> abs (g_ota g') n = abs (g_ota g) n) /\
      same_core g g' /\ g_log g' = g_log (alert g m) /\ g_dirty g' = g_dirty (alert g m).
Proof. exact logic_stream_request. Qed.

(* the same at the level of the two leaf handlers (before handle_stream's alert) *)
Theorem C10_respond_fw_config_refines :
  forall g m, tabfacts (tab g) (cf_ge20 (g_cf g)) -> sess_inv (g_ota g) -> wire_ok (m_payload m) = true ->
    leaf_sim g m (cfg_input m) (respond_fw_config g m).
Proof. exact respond_fw_config_sim. Qed.
Theorem C10_respond_fw_refines :
  forall g m, tabfacts (tab g) (cf_ge20 (g_cf g)) -> sess_inv (g_ota g) -> wire_ok (m_payload m) = true ->
    leaf_sim g m (blk_input m) (respond_fw g m).
Proof. exact respond_fw_sim. Qed.

(* accepted stream message of any other sub-type from a known node: nothing at all *)
Theorem C10_stream_other_subtype_noop :
  forall orc clock g l m,
    cfg_ok (g_cf g) -> decode l = Some m -> gvalidate orc g m = true -> m_type m = 4 ->
    known g (m_node m) = true -> stream_input m = None ->
    logic orc clock g l = Ok (g, None).
Proof. exact logic_stream_other. Qed.

(* every other accepted line (presentation of a child, set, req, internal): the OTA state, node
   ids and reboot flags are untouched (frame = g_ota equal, configuration equal, known nodes stay
   known, ids_ok kept, every reboot flag equal) *)
Theorem C10_other_lines_frame :
  forall orc clock g l m g' r,
    cfg_ok (g_cf g) -> decode l = Some m -> gvalidate orc g m = true ->
    m_type m <> 4 -> ~ (m_type m = 0 /\ m_child m = 255) ->
    logic orc clock g l = Ok (g', r) -> frame g g'.
Proof.
  intros orc clock g l m g' r C D V NS NP E. exact (proj1 (logic_other orc clock g l m g' r C D V NS NP E)).
Qed.

(* every leaf handler of the registry other than the two firmware request handlers, and the
   controller call set_child_value *)
Theorem C10_leaf_handlers_frame :
  forall orc clock h g m g' r, is_fw_leaf h = false -> run_leaf orc clock h g m = Ok (g', r) -> frame g g'.
Proof.
  intros orc clock h g m g' r NF E. exact (proj1 (foot_run_leaf orc clock h g m NF g' r E)).
Qed.
Theorem C10_set_child_value_frame :
  forall orc g s c vt v mt a g', set_child_value orc g s c vt v mt a = Ok g' -> frame g g'.
Proof. exact frame_set_child_value. Qed.

(* the update call: never raises; without a key (bad / out-of-range type or version, failed
   load, no image) NOTHING changes (stores, firmware dictionary, sensors); with key (t,v) the
   image (if given) is stored, exactly the KNOWN nodes named move to Requested (t,v) from
   whatever state (restart) and get their reboot flag set, unknown ids are skipped *)
Theorem C10_update_call :
  forall g nids fwt fwv bin, sess_inv (g_ota g) -> ids_ok g ->
  exists g', update_fw g nids fwt fwv bin = Ok g' /\
    sess_inv (g_ota g') /\ ids_ok g' /\ g_cf g' = g_cf g /\
    g_log g' = g_log g /\ g_jobs g' = g_jobs g /\ g_dirty g' = g_dirty g /\ g_metric g' = g_metric g /\
    (forall n, known g' n = known g n) /\
    match update_key g fwt fwv bin with
    | None =>
        same_sessions (g_ota g) (g_ota g') /\ o_fw (g_ota g') = o_fw (g_ota g) /\ g_sensors g' = g_sensors g
    | Some (t, v) =>
        0 <= t <= 65535 /\ 0 <= v <= 65535 /\ vt_int fwt = Some t /\ vt_int fwv = Some v /\
        (exists f, fw_lookup t v (o_fw (g_ota g')) = Some f) /\
        o_fw (g_ota g') = match bin with
                          | Some b => fw_store t v (prepare_fw b) (o_fw (g_ota g))
                          | None => o_fw (g_ota g)
                          end /\
        (forall n, abs (g_ota g') n =
                   if zmem n nids && known g n then Requested (t, v) else abs (g_ota g) n) /\
        (forall n, reboot_flag g' n = if zmem n nids && known g n then true else reboot_flag g n)
    end.
Proof.
  intros g nids fwt fwv bin S I.
  destruct (update_fw_foot g nids fwt fwv bin (conj S I)) as (g' & E & [S' I'] & R & KN & SPEC).
  exists g'. injection R as CF LG JB DT MT. repeat (split; [assumption|]).
  destruct (update_key g fwt fwv bin) as [[t v]|] eqn:UK; [|subst g'; repeat split; reflexivity].
  destruct (update_key_sound _ _ _ _ _ _ UK) as (Et & Ev & Rt & Rv & AV). destruct SPEC as (FW & P).
  repeat (split; [assumption|]). split; [|split; [exact FW|split; intro n; apply P]].
  rewrite FW. destruct AV as [(b0 & br & ->)|(-> & AV)]; [rewrite fw_lookup_store_same; eauto|exact AV].
Qed.

Theorem C10_update_key_sound :
  forall g ft fv bin t v, update_key g ft fv bin = Some (t, v) ->
    vt_int ft = Some t /\ vt_int fv = Some v /\ 0 <= t <= 65535 /\ 0 <= v <= 65535 /\
    ((exists b0 br, bin = Some (b0 :: br)) \/
     (bin = None /\ exists f, fw_lookup t v (o_fw (g_ota g)) = Some f)).
Proof. exact update_key_sound. Qed.

(* the whole machine, one step, exactly: in a state satisfying the C01 invariant (so that the
   dispatcher cannot raise) the session of every node after ANY step is the automaton's *)
Theorem C10_session_refines_step :
  forall orc clock g o n, cfg_ok (g_cf g) -> Inv orc g -> SInv g ->
    abs (g_ota (step orc clock g o)) n =
      match schedules g o n with
      | Some k => Requested k
      | None => match request_of orc g o n with
                | Some i => fst (sstep (abs (g_ota g) n) i)
                | None => abs (g_ota g) n
                end
      end.
Proof.
  intros orc clock g o n C IV SI. destruct (step_footprint orc clock g o C SI) as (_ & _ & _ & _ & P).
  destruct (P n) as [-> _]. rewrite (Inv_no_raise orc clock g o C IV). reflexivity.
Qed.

(* gated (history): a session that is not Idle was scheduled, with its key, by an earlier update
   call that named the node while it was known and had a key (C10_update_key_sound: integers in
   range, firmware available) *)
Theorem C10_gated_history :
  forall orc clock cf ops n k, cfg_ok cf ->
    key_of (abs (g_ota (run orc clock (gw_init cf) ops)) n) = Some k ->
    exists pre ns ft fv bin post,
      ops = pre ++ UpdateFw ns ft fv bin :: post /\
      update_key (run orc clock (gw_init cf) pre) ft fv bin = Some k /\
      zmem n ns = true /\ known (run orc clock (gw_init cf) pre) n = true.
Proof.
  intros orc clock cf ops n k C. induction ops as [|o ops IH] using rev_ind; [discriminate|].
  rewrite run_snoc. destruct (reachable_invariant orc clock cf ops C) as (S & I & _ & CF).
  assert (Cg : cfg_ok (g_cf (run orc clock (gw_init cf) ops))) by (rewrite CF; exact C).
  destruct (step_moved orc clock _ o Cg (conj S I)) as (_ & _ & _ & _ & MV).
  destruct (MV n) as [i NU AB|ns tt vv bin k' EO UK Z K AB]; intro KO.
  - rewrite AB, (key_of_request _ _ NU) in KO.
    destruct (IH KO) as (pre & ns & tt & vv & bin & post & E & REST).
    exists pre, ns, tt, vv, bin, (post ++ [o]). split; [|exact REST]. rewrite E, <- app_assoc. reflexivity.
  - rewrite AB in KO. inversion KO; subst k'. exists ops, ns, tt, vv, bin, []. subst o. auto.
Qed.

(* gated (per line): whatever the line, if the dispatcher replies with a stream message, that
   message is a config (1) or block (3) response addressed to a known node whose session is
   not Idle *)
Theorem C10_gated_reply :
  forall orc clock g l g' rl, cfg_ok (g_cf g) -> sess_inv (g_ota g) ->
    logic orc clock g l = Ok (g', Some rl) ->
    exists x, rl = encode x /\
      (m_type x = 4 -> known g (m_node x) = true /\ abs (g_ota g) (m_node x) <> Idle /\
                       (m_sub x = 1 \/ m_sub x = 3)).
Proof.
  intros orc clock g l g' rl C S E.
  destruct (reply_cases orc clock g l g' rl C S E) as (m & _ & _ & x & -> & [[_ TX]|(_ & _ & NX & K & k & CS)]);
    exists x; (split; [reflexivity|]); intro TY; [contradiction|].
  rewrite NX. split; [exact K|].
  destruct CS as [(_ & SX & [A|A])|(_ & SX & [A|A])]; rewrite A; (split; [discriminate|auto]).
Qed.

(* and precisely: config request answered only in Requested / Offered, block request only in
   Offered / Fetching (Requested never yields block responses) *)
Theorem C10_stream_reply_gated :
  forall orc clock g l m g' rl,
    cfg_ok (g_cf g) -> sess_inv (g_ota g) -> decode l = Some m -> gvalidate orc g m = true -> m_type m = 4 ->
    logic orc clock g l = Ok (g', Some rl) ->
    known g (m_node m) = true /\
    exists x k, rl = encode x /\ m_node x = m_node m /\ m_type x = 4 /\
      ((m_sub m = 0 /\ m_sub x = 1 /\
        (abs (g_ota g) (m_node m) = Requested k \/ abs (g_ota g) (m_node m) = Offered k)) \/
       (m_sub m = 2 /\ m_sub x = 3 /\
        (abs (g_ota g) (m_node m) = Offered k \/ abs (g_ota g) (m_node m) = Fetching k))).
Proof.
  intros orc clock g l m g' rl C S D V T E.
  destruct (reply_cases orc clock g l g' rl C S E) as (m' & D' & _ & x & -> & CS).
  rewrite D in D'. inversion D'; subst m'. destruct CS as [[NT _]|(_ & TX & NX & K & k & CS)]; [contradiction|].
  split; [exact K|]. exists x, k. split; [reflexivity|]. split; [exact NX|]. split; [exact TX|exact CS].
Qed.

Theorem C10_non_stream_line_not_answered_with_stream :
  forall orc clock g l m g' rl,
    cfg_ok (g_cf g) -> decode l = Some m -> gvalidate orc g m = true -> m_type m <> 4 ->
    logic orc clock g l = Ok (g', Some rl) -> exists x, rl = encode x /\ m_type x <> 4.
Proof. exact non_stream_reply. Qed.

(* no re-flash loop: while a node is Fetching, NO line whatsoever is answered with a config
   response for it ... *)
Theorem C10_no_reflash_loop :
  forall orc clock g l g' rl n k, cfg_ok (g_cf g) -> sess_inv (g_ota g) ->
    abs (g_ota g) n = Fetching k -> logic orc clock g l = Ok (g', Some rl) ->
    exists x, rl = encode x /\ ~ (m_node x = n /\ m_type x = 4 /\ m_sub x = 1).
Proof.
  intros orc clock g l g' rl n k C S AB E.
  destruct (reply_cases orc clock g l g' rl C S E) as (m & _ & _ & x & -> & CS). exists x. split; [reflexivity|].
  intros (N & TY & SX). destruct CS as [[_ TX]|(_ & _ & NX & _ & k' & CS)]; [contradiction|].
  rewrite <- NX, N, AB in CS.
  destruct CS as [(_ & _ & [A|A])|(_ & SX3 & _)]; [discriminate A|discriminate A|congruence].
Qed.

(* ... and it stays Fetching, with the same key, over any history in which no update call names it *)
Theorem C10_fetching_stable :
  forall orc clock ops g n k, cfg_ok (g_cf g) -> SInv g ->
    abs (g_ota g) n = Fetching k -> forallb (fun o => negb (names n o)) ops = true ->
    abs (g_ota (run orc clock g ops)) n = Fetching k.
Proof.
  intros orc clock ops. induction ops as [|o ops IH]; intros g n k C SI AB NO; [exact AB|].
  cbn [forallb] in NO. apply andb_true_iff in NO as [NO1 NO2].
  destruct (step_moved orc clock g o C SI) as (SI1 & C1 & _ & _ & MV).
  change (run orc clock g (o :: ops)) with (run orc clock (step orc clock g o) ops).
  apply IH; [rewrite C1; exact C|exact SI1| |exact NO2].
  destruct (MV n) as [i NU X|ns ft fv bin k' EO _ Z _ _].
  - rewrite X, AB. destruct i; [discriminate| | |]; reflexivity.
  - subst o. cbn [names] in NO1. rewrite Z in NO1. discriminate.
Qed.

(* the config response is repeated until the node starts fetching: in Requested / Offered every
   well-formed config request is answered with the payload for the SCHEDULED key *)
Theorem C10_config_repeated_until_fetch :
  forall orc clock g l m t v f,
    cfg_ok (g_cf g) -> sess_inv (g_ota g) ->
    decode l = Some m -> gvalidate orc g m = true -> m_type m = 4 -> m_sub m = 0 ->
    known g (m_node m) = true -> hex_request_ok (m_payload m) 5 = true ->
    (abs (g_ota g) (m_node m) = Requested (t, v) \/ abs (g_ota g) (m_node m) = Offered (t, v)) ->
    fw_lookup t v (o_fw (g_ota g)) = Some f ->
    exists g',
      logic orc clock g l =
        (do p <- fw_config_payload t v f; Ok (g', Some (encode (stream_reply m 1 p)))) /\
      abs (g_ota g') (m_node m) = Offered (t, v) /\ sess_inv (g_ota g').
Proof.
  intros orc clock g l m t v f C S D V T SB K HX AB LK.
  apply fw_hex_to_int_ok_iff in HX as [ws HX].
  assert (IN : stream_input m = Some CfgReq) by (unfold stream_input, cfg_input; rewrite SB, HX; reflexivity).
  destruct (logic_stream_request orc clock g l m CfgReq C S D V T K IN) as (g' & EL & S' & _ & AB' & _).
  exists g'. rewrite EL, AB'.
  destruct AB as [-> | ->]; cbn [sstep fst snd offer_reply]; rewrite LK;
    (split; [destruct (fw_config_payload t v f); reflexivity|split; [reflexivity|exact S']]).
Qed.

(* in reachable states (images whose block count fits the 16-bit header word: op_ok) the image
   IS stored and the packing cannot fail: the request is answered, explicitly *)
Theorem C10_config_answered_reachable :
  forall orc clock cf ops l m t v, cfg_ok cf -> Forall op_ok ops ->
    let g := run orc clock (gw_init cf) ops in
    decode l = Some m -> gvalidate orc g m = true -> m_type m = 4 -> m_sub m = 0 ->
    known g (m_node m) = true -> hex_request_ok (m_payload m) 5 = true ->
    (abs (g_ota g) (m_node m) = Requested (t, v) \/ abs (g_ota g) (m_node m) = Offered (t, v)) ->
    exists f g',
      fw_lookup t v (o_fw (g_ota g)) = Some f /\
      logic orc clock g l =
        Ok (g', Some (encode (stream_reply m 1
               (hexlify (le16 t ++ le16 v ++ le16 (fw_blocks f) ++ le16 (fw_crc f)))))) /\
      abs (g_ota g') (m_node m) = Offered (t, v).
Proof.
  intros orc clock cf ops l m t v C OK g D V T SB K HX AB.
  destruct (run_ok orc clock ops (gw_init cf) C (Inv_init orc cf) OK) as [IV CF]. fold g in IV, CF.
  destruct (reachable_invariant orc clock cf ops C) as (S & I & FA & _). fold g in S, I, FA.
  assert (Cg : cfg_ok (g_cf g)) by (rewrite CF; exact C).
  destruct (FA (m_node m) t v) as [f LK]; [destruct AB as [-> | ->]; reflexivity|].
  destruct (C10_config_repeated_until_fetch orc clock g l m t v f Cg S D V T SB K HX AB LK) as (g' & EL & AB' & _).
  exists f, g'. split; [exact LK|]. split; [|exact AB'].
  rewrite EL, (config_payload_ok orc g (m_node m) t v f IV AB LK). reflexivity.
Qed.

(* a well-formed block request in Offered / Fetching: the node is Fetching afterwards; the reply
   is the block of the image stored for the REQUESTED key; when none is stored there is no
   reply but the session has moved all the same (observation recorded in the notes) *)
Theorem C10_block_request_served :
  forall orc clock g l m k rt rv rb,
    cfg_ok (g_cf g) -> sess_inv (g_ota g) ->
    decode l = Some m -> gvalidate orc g m = true -> m_type m = 4 -> m_sub m = 2 ->
    known g (m_node m) = true -> fw_hex_to_int (m_payload m) 3 = Ok [rt; rv; rb] ->
    (abs (g_ota g) (m_node m) = Offered k \/ abs (g_ota g) (m_node m) = Fetching k) ->
    exists g',
      logic orc clock g l =
        match fw_lookup rt rv (o_fw (g_ota g)) with
        | Some f => do p <- fw_response_payload rt rv rb f; Ok (g', Some (encode (stream_reply m 3 p)))
        | None => Ok (g', None)
        end /\
      abs (g_ota g') (m_node m) = Fetching k /\ sess_inv (g_ota g').
Proof.
  intros orc clock g l m k rt rv rb C S D V T SB K HX AB.
  assert (IN : stream_input m = Some (BlkReq (rt, rv) rb))
    by (unfold stream_input, blk_input; rewrite SB, HX; reflexivity).
  destruct (logic_stream_request orc clock g l m _ C S D V T K IN) as (g' & EL & S' & _ & AB' & _).
  exists g'. rewrite EL, AB'.
  destruct AB as [-> | ->]; cbn [sstep fst snd offer_reply];
    (split; [|split; [reflexivity|exact S']]);
    destruct (fw_lookup rt rv (o_fw (g_ota g))) as [f|]; try reflexivity;
    destruct (fw_response_payload rt rv rb f); reflexivity.
Qed.
Theorem C10_block_payload_never_fails :
  forall p rt rv rb f, fw_hex_to_int p 3 = Ok [rt; rv; rb] ->
    fw_response_payload rt rv rb f =
      Ok (hexlify (le16 rt ++ le16 rv ++ le16 rb) ++ hexlify (fw_block (fw_data f) rb)).
Proof.
  intros p rt rv rb f H. destruct (fw_int_hex_roundtrip _ _ _ H) as (_ & _ & W).
  rewrite OtaProofs.words_ok3 in W. apply andb_true_iff in W as [W Wb]. apply andb_true_iff in W as [Wt Wv].
  apply OtaProofs.fw_response_payload_ok; assumption.
Qed.

(* restart: an update call with a key moves every known node it names to Requested, from ANY state *)
Theorem C10_restart :
  forall g ns ft fv bin n k, SInv g ->
    update_key g ft fv bin = Some k -> zmem n ns = true -> known g n = true ->
    exists g', update_fw g ns ft fv bin = Ok g' /\ abs (g_ota g') n = Requested k /\ reboot_flag g' n = true.
Proof. exact restart. Qed.

Theorem C10_update_without_effect :
  forall g ns ft fv bin, SInv g ->
    (update_key g ft fv bin = None \/ forall n, zmem n ns = true -> known g n = false) ->
    exists g', update_fw g ns ft fv bin = Ok g' /\
      forall n, abs (g_ota g') n = abs (g_ota g) n /\ reboot_flag g' n = reboot_flag g n.
Proof.
  intros g ns ft fv bin SI H. destruct (update_fw_foot g ns ft fv bin SI) as (g' & E & _ & _ & _ & SPEC).
  exists g'. split; [exact E|]. intro n.
  destruct (update_key g ft fv bin) as [[t v]|]; [|subst g'; split; reflexivity].
  destruct H as [H|H]; [discriminate|]. destruct SPEC as (_ & P). destruct (P n) as [-> ->].
  destruct (zmem n ns) eqn:Z; [rewrite (H n Z)|]; split; reflexivity.
Qed.

(* stream message from a node the gateway does not know: no reply; nothing changes except that a
   >= 2.0 gateway asks the node to present itself ("n;255;3;0;19;") *)
Theorem C10_stream_from_unknown_node_ignored :
  forall orc clock g l m,
    cfg_ok (g_cf g) -> decode l = Some m -> gvalidate orc g m = true -> m_type m = 4 ->
    known g (m_node m) = false ->
    logic orc clock g l =
      Ok (if cf_ge20 (g_cf g) then add_job_send g (encode (mkMsg (m_node m) 255 3 0 19 [])) else g, None).
Proof. exact logic_stream_unknown. Qed.

(* malformed_ignored.
   A firmware config / firmware request from a known node whose payload does not unpack: no
   exception, no reply, and the state is EXACTLY alert g m - the callback / dirty mark of
   handle_stream; g_ota, sensors, jobs are untouched *)
Theorem C10_malformed_ignored :
  forall orc clock g l m,
    cfg_ok (g_cf g) -> decode l = Some m -> gvalidate orc g m = true -> m_type m = 4 ->
    known g (m_node m) = true ->
    ((m_sub m = 0 /\ exists e, fw_hex_to_int (m_payload m) 5 = Raise e) \/
     (m_sub m = 2 /\ exists e, fw_hex_to_int (m_payload m) 3 = Raise e)) ->
    logic orc clock g l = Ok (alert g m, None).
Proof.
  intros orc clock g l m C D V T K MF.
  rewrite (logic_stream orc clock g l m C D V T), (handle_stream_known orc clock g m (tabfacts_of_cfg g C) T K).
  unfold stream_spec. destruct MF as [[S [e E]]|[S [e E]]]; rewrite S; cbn [Z.eqb Pos.eqb]; unfold run_leaf;
    [unfold respond_fw_config|unfold respond_fw]; rewrite E; reflexivity.
Qed.

Theorem C10_alert_changes_log_and_dirty_only :
  forall g m, g_sensors (alert g m) = g_sensors g /\ g_ota (alert g m) = g_ota g /\ g_cf (alert g m) = g_cf g /\
              g_jobs (alert g m) = g_jobs g /\ g_metric (alert g m) = g_metric g.
Proof. exact alert_frame. Qed.

(* which payloads are malformed: exactly those that are not 4*words hexadecimal digits
   (odd length, wrong length, a non-hex or non-ASCII character, white space, sign, prefix) *)
Theorem C10_malformed_iff :
  forall s words, (exists e, fw_hex_to_int s words = Raise e) <-> hex_request_ok s words = false.
Proof.
  intros s n. destruct (hex_request_ok s n) eqn:H.
  - apply fw_hex_to_int_ok_iff in H as [ws E]. rewrite E. split; [intros [e X]; discriminate|discriminate].
  - split; [reflexivity|]. intros _. destruct (fw_hex_to_int s n) as [ws|e] eqn:E; [|eauto].
    assert (X : hex_request_ok s n = true) by (apply fw_hex_to_int_ok_iff; eauto). congruence.
Qed.
Theorem C10_malformed_exceptions :
  forall s words e, fw_hex_to_int s words = Raise e ->
    e = ValueError \/ e = BinasciiError \/ e = StructError.
Proof. exact fw_hex_to_int_errors. Qed.

(* reboot_window.
   The flag after ANY step, exactly: set by an update call that schedules the node, cleared by
   an accepted node presentation, untouched by everything else (one step; the reading "true from
   the update call to the next node presentation" is the induction over a history, not stated) *)
Theorem C10_reboot_window :
  forall orc clock g o n, cfg_ok (g_cf g) -> SInv g ->
    reboot_flag (step orc clock g o) n =
      match schedules g o n with
      | Some _ => true
      | None => if presents orc g o n then false else reboot_flag g n
      end.
Proof.
  intros orc clock g o n C SI. destruct (step_footprint orc clock g o C SI) as (_ & _ & _ & _ & P). apply P.
Qed.

(* set message from a KNOWN child: the reply, before routing, is (node, 255, internal=3, 0,
   I_REBOOT=13, "") iff the flag is set *)
Theorem C10_set_known_child_reboot_reply :
  forall g m nd,
    tabfacts (tab g) (cf_ge20 (g_cf g)) -> wire_ok (m_payload m) = true ->
    get_node g (m_node m) = Some nd -> zhas (m_child m) (n_children nd) = true ->
    handle_set g m =
      Ok (alert (put_node g (update_child_value nd (m_child m) (m_sub m) (m_payload m))) m,
          if n_reboot nd then Some (mkMsg (m_node m) 255 3 0 13 []) else None).
Proof.
  intros g m nd TF W G Z. unfold handle_set, is_sensor. rewrite G, Z. cbn [bind negb andb]. rewrite G.
  destruct (update_child_value_fields nd (m_child m) (m_sub m) (m_payload m)) as (_ & -> & _).
  destruct (n_reboot nd); [|reflexivity].
  unfold internal_member. rewrite (tf_reboot _ _ TF). cbn [of_option bind].
  rewrite (CodecProofs.copy_spec _ _ W). cbn [bind]. rewrite (tf_internal _ _ TF). reflexivity.
Qed.

(* the table facts hold for the five configurations (I_REBOOT = 13 etc. are finite facts about
   the generated tables, checked per version) *)
Theorem C10_table_facts : forall g, cfg_ok (g_cf g) -> tabfacts (tab g) (cf_ge20 (g_cf g)).
Proof. exact tabfacts_of_cfg. Qed.

(* set message for an unknown child: no reboot request *)
Theorem C10_set_unknown_child_no_reboot :
  forall g m g1 r,
    (forall nd, get_node g (m_node m) = Some nd -> zhas (m_child m) (n_children nd) = false) ->
    handle_set g m = Ok (g1, r) -> r = None.
Proof.
  intros g m g1 r U. unfold handle_set.
  destruct (is_sensor g (m_node m) (Some (m_child m))) as [[g2 b]|e] eqn:E; cbn [bind]; [|discriminate].
  destruct b; cbn [negb]; [|intro H; inversion H; reflexivity].
  destruct (proj2 (is_sensor_spec _ _ _ _ _ E) eq_refl) as (_ & nd & G & K). specialize (K _ eq_refl). rewrite (U nd G) in K. discriminate.
Qed.

(* through the dispatcher: sent at once to an awake node, queued for the next wake-up of a
   smart-sleep node *)
Theorem C10_set_line_reboot :
  forall orc clock g l m nd,
    cfg_ok (g_cf g) -> ids_ok g -> decode l = Some m -> gvalidate orc g m = true -> m_type m = 1 ->
    get_node g (m_node m) = Some nd -> zhas (m_child m) (n_children nd) = true -> n_reboot nd = true ->
    exists g', logic orc clock g l =
                 Ok (g', if sleeping nd then None else Some (encode (mkMsg (m_node m) 255 3 0 13 []))) /\
      frame g g' /\
      (sleeping nd = true -> exists nd', get_node g' (m_node m) = Some nd' /\
           n_queue nd' = n_queue nd ++ [encode (mkMsg (m_node m) 255 3 0 13 [])]).
Proof.
  intros orc clock g l m nd C I D V T G Z RB. pose proof (tabfacts_of_cfg g C) as TF.
  pose proof (CodecProofs.decoded_payload_wire_ok _ _ D) as W.
  destruct (logic_dispatch orc clock g l m C D V) as [_ ->]. rewrite T. unfold top_handler, run_handler, post_route.
  rewrite (C10_set_known_child_reboot_reply g m nd TF W G Z), RB. cbn [bind].
  set (nd1 := update_child_value nd (m_child m) (m_sub m) (m_payload m)).
  destruct (update_child_value_fields nd (m_child m) (m_sub m) (m_payload m)) as (U1 & U2 & U3).
  fold nd1 in U1, U2, U3. set (g1 := alert (put_node g nd1) m).
  pose proof (frame_put_alert g _ nd nd1 m G U1 U2) as F1. fold g1 in F1.
  assert (G1 : get_node g1 (m_node m) = Some nd1).
  { unfold g1, get_node. destruct (alert_frame (put_node g nd1) m) as (-> & _).
    fold (get_node (put_node g nd1) (m_node m)). rewrite get_node_put, U1, (ids_ok_get g _ _ I G), Z.eqb_refl.
    reflexivity. }
  unfold route_opt, route. cbn [m_type m_node].
  assert (TG : tab g1 = tab g) by (unfold tab; destruct F1 as (_ & -> & _); reflexivity).
  rewrite TG, (tf_presentation _ _ TF), (tf_stream _ _ TF), G1, U3. cbn [Z.eqb orb].
  destruct (sleeping nd) eqn:SL; cbn [negb].
  - eexists. split; [reflexivity|]. split.
    + eapply frame_trans; [exact F1|]. eapply frame_put; [exact G1|reflexivity|reflexivity].
    + intros _. eexists. rewrite get_node_put. cbn [n_id]. rewrite U1, (ids_ok_get g _ _ I G), Z.eqb_refl.
      split; [reflexivity|]. cbn [n_queue]. unfold nd1, update_child_value.
      destruct (zassoc (m_child m) (n_children nd)); [|reflexivity].
      destruct (zassoc (m_child m) (n_new nd)); reflexivity.
  - exists g1. split; [reflexivity|]. split; [exact F1|discriminate].
Qed.

Theorem C10_set_line_no_reboot_after_presentation :
  forall orc clock g l m nd,
    cfg_ok (g_cf g) -> decode l = Some m -> gvalidate orc g m = true -> m_type m = 1 ->
    get_node g (m_node m) = Some nd -> zhas (m_child m) (n_children nd) = true -> n_reboot nd = false ->
    exists g', logic orc clock g l = Ok (g', None).
Proof.
  intros orc clock g l m nd C D V T G Z RB.
  destruct (logic_dispatch orc clock g l m C D V) as [_ ->]. rewrite T. unfold top_handler, run_handler, post_route.
  rewrite (C10_set_known_child_reboot_reply g m nd (tabfacts_of_cfg g C)
             (CodecProofs.decoded_payload_wire_ok _ _ D) G Z), RB.
  cbn [bind]. eexists. reflexivity.
Qed.

(* node presentation: never raises, clears the flag of that node only, OTA state untouched *)
Theorem C10_node_presentation_clears_reboot :
  forall orc clock g l m,
    cfg_ok (g_cf g) -> decode l = Some m -> gvalidate orc g m = true -> m_type m = 0 -> m_child m = 255 ->
    exists g', logic orc clock g l = Ok (g', None) /\
      g_ota g' = g_ota g /\ g_cf g' = g_cf g /\
      (forall n, known g n = true -> known g' n = true) /\ known g' (m_node m) = true /\
      (ids_ok g -> ids_ok g' /\ reboot_flag g' (m_node m) = false /\
                   forall n, n <> m_node m -> reboot_flag g' n = reboot_flag g n).
Proof. exact logic_node_presentation. Qed.

(* session_terminates.
   From Requested: one well-formed config request and one well-formed block request later the
   node is Fetching, and from then on - over any history in which no update call names it -
   it stays Fetching and no line is answered with a config response for it *)
Theorem C10_session_terminates :
  forall orc clock g l1 m1 g1 r1 l2 m2 g2 r2 n k ws rt rv rb,
    cfg_ok (g_cf g) -> SInv g -> known g n = true -> abs (g_ota g) n = Requested k ->
    decode l1 = Some m1 -> gvalidate orc g m1 = true -> m_type m1 = 4 -> m_sub m1 = 0 -> m_node m1 = n ->
    fw_hex_to_int (m_payload m1) 5 = Ok ws ->
    logic orc clock g l1 = Ok (g1, r1) ->
    decode l2 = Some m2 -> gvalidate orc g m2 = true -> m_type m2 = 4 -> m_sub m2 = 2 -> m_node m2 = n ->
    fw_hex_to_int (m_payload m2) 3 = Ok [rt; rv; rb] ->
    logic orc clock g1 l2 = Ok (g2, r2) ->
    abs (g_ota g1) n = Offered k /\ abs (g_ota g2) n = Fetching k /\
    (forall ops, forallb (fun o => negb (names n o)) ops = true ->
       let g3 := run orc clock g2 ops in
       abs (g_ota g3) n = Fetching k /\
       forall l g' rl, logic orc clock g3 l = Ok (g', Some rl) ->
         exists x, rl = encode x /\ ~ (m_node x = n /\ m_type x = 4 /\ m_sub x = 1)).
Proof.
  intros orc clock g l1 m1 g1 r1 l2 m2 g2 r2 n k ws rt rv rb C SI K AB D1 V1 T1 SB1 N1 H1 E1 D2 V2 T2 SB2 N2 H2 E2.
  pose proof (logic_footprint orc clock g l1 C SI) as F1. rewrite E1 in F1.
  destruct F1 as (SI1 & C1 & K1 & _ & P1). destruct (P1 n) as [A1 _].
  assert (R1 : request_of_line orc g l1 n = Some CfgReq).
  { unfold request_of_line, stream_input, cfg_input. rewrite D1, V1, T1, N1, !Z.eqb_refl, K, SB1, H1. reflexivity. }
  rewrite R1, AB in A1. cbn [sstep fst] in A1.
  assert (Cg1 : cfg_ok (g_cf g1)) by (rewrite C1; exact C).
  assert (V2' : gvalidate orc g1 m2 = true) by (unfold gvalidate, tab in *; rewrite C1; exact V2).
  pose proof (logic_footprint orc clock g1 l2 Cg1 SI1) as F2. rewrite E2 in F2.
  destruct F2 as (SI2 & C2 & _ & _ & P2). destruct (P2 n) as [A2 _].
  assert (R2 : request_of_line orc g1 l2 n = Some (BlkReq (rt, rv) rb)).
  { unfold request_of_line, stream_input, blk_input.
    rewrite D2, V2', T2, N2, !Z.eqb_refl, (K1 n K), SB2, H2. reflexivity. }
  rewrite R2, A1 in A2. cbn [sstep fst] in A2.
  split; [exact A1|]. split; [exact A2|]. intros ops NO g3.
  assert (Cg2 : cfg_ok (g_cf g2)) by (rewrite C2; exact Cg1).
  pose proof (C10_fetching_stable orc clock ops g2 n k Cg2 SI2 A2 NO) as F3. fold g3 in F3. split; [exact F3|].
  destruct (run_SInv orc clock ops g2 Cg2 SI2) as [[S3 _] C3]. fold g3 in S3, C3.
  intros l g' rl E. eapply C10_no_reflash_loop; [rewrite C3; exact Cg2|exact S3|exact F3|exact E].
Qed.

Definition c10_img : list N := [1;2;3;4;5;6;7;8;9;10;11;12;13;14;15;16;17;18;19;20]%N.
Definition c10_cf : config := mkConfig tab_22 true true false false.
Definition c10_h0 : list op :=
  [Recv (s2p "1;255;0;0;3;x"); Recv (s2p "1;1;0;0;6;t"); UpdateFw [1; 7] (VtInt 1) (VtStr (s2p "1")) (Some c10_img)].
Definition c10_g0 : gw := run no_oracles 0 (gw_init c10_cf) c10_h0.
Definition c10_cfgreq : pstr := s2p "1;255;4;0;0;01000100000000000000".
Definition c10_blkreq : pstr := s2p "1;255;4;0;2;010001000000".
Definition c10_new_events (g g' : gw) : list event := skipn (List.length (g_log g)) (g_log g').

Example C10_cfg_exists : cfg_ok c10_cf.
Proof. exists V22. cbn [c10_cf cf_tab cf_ge20 ValidateProofs.tab_of ge20]. split; reflexivity. Qed.

(* present node 1 (and a child), update_fw([1, 7], 1, "1", image): node 1 Requested, flag set;
   the unknown id 7 is skipped *)
Example C10_ex_scheduled :
  abs (g_ota c10_g0) 1 = Requested (1, 1) /\ reboot_flag c10_g0 1 = true /\ known c10_g0 1 = true /\
  abs (g_ota c10_g0) 7 = Idle /\ known c10_g0 7 = false /\
  update_key (run no_oracles 0 (gw_init c10_cf) (firstn 2 c10_h0)) (VtInt 1) (VtStr (s2p "1")) (Some c10_img) = Some (1, 1).
Proof. vm_compute. repeat split; reflexivity. Qed.

(* config request -> config response "1;255;4;0;1;010001000800d85f" (8 blocks, CRC 0x5fd8) *)
Example C10_ex_config_response :
  let g1 := step no_oracles 0 c10_g0 (Recv c10_cfgreq) in
  abs (g_ota g1) 1 = Offered (1, 1) /\
  c10_new_events c10_g0 g1 = [ESend (s2p "1;255;4;0;1;010001000800d85f" ++ [nl])].
Proof. vm_compute. split; reflexivity. Qed.

(* repeated config request -> repeated response; block request -> block 0; then a config
   request is no longer answered *)
Example C10_ex_session :
  let g1 := run no_oracles 0 c10_g0 [Recv c10_cfgreq; Recv c10_cfgreq] in
  let g2 := step no_oracles 0 g1 (Recv c10_blkreq) in
  let g3 := step no_oracles 0 g2 (Recv c10_cfgreq) in
  abs (g_ota g1) 1 = Offered (1, 1) /\
  c10_new_events c10_g0 g1 = [ESend (s2p "1;255;4;0;1;010001000800d85f" ++ [nl]);
                              ESend (s2p "1;255;4;0;1;010001000800d85f" ++ [nl])] /\
  abs (g_ota g2) 1 = Fetching (1, 1) /\
  c10_new_events g1 g2 = [ESend (s2p "1;255;4;0;3;0100010000000102030405060708090a0b0c0d0e0f10" ++ [nl])] /\
  abs (g_ota g3) 1 = Fetching (1, 1) /\ c10_new_events g2 g3 = [].
Proof. vm_compute. repeat split; reflexivity. Qed.

(* malformed requests (non-hex, truncated, over-long, odd) from the scheduled node: no reply,
   session unchanged; a stream request from the unknown node 9: only the presentation request *)
Example C10_ex_malformed :
  let g1 := run no_oracles 0 c10_g0
              [Recv (s2p "1;255;4;0;0;zz"); Recv (s2p "1;255;4;0;0;0100010000000000"); Recv (s2p "1;255;4;0;2;0100010000000");
               Recv (s2p "1;255;4;0;2;01000100000000")] in
  let g2 := step no_oracles 0 g1 (Recv (s2p "9;255;4;0;0;01000100000000000000")) in
  g_ota g1 = g_ota c10_g0 /\ c10_new_events c10_g0 g1 = [] /\
  hex_request_ok (s2p "zz") 5 = false /\ hex_request_ok (s2p "01000100000000000000") 5 = true /\
  g_ota g2 = g_ota c10_g0 /\ c10_new_events g1 g2 = [ESend (s2p "9;255;3;0;19;" ++ [nl])].
Proof. vm_compute. repeat split; reflexivity. Qed.

(* reboot window: a set message from the known child 1 is answered with "1;255;3;0;13;" until
   node 1 presents itself again; a set for the unknown child 2 is not *)
Example C10_ex_reboot_window :
  let g1 := step no_oracles 0 c10_g0 (Recv (s2p "1;1;1;0;0;20.5")) in
  let g2 := step no_oracles 0 g1 (Recv (s2p "1;2;1;0;0;20.5")) in
  let g3 := step no_oracles 0 g2 (Recv (s2p "1;255;0;0;3;x")) in
  let g4 := step no_oracles 0 g3 (Recv (s2p "1;1;1;0;0;21")) in
  c10_new_events c10_g0 g1 = [ESend (s2p "1;255;3;0;13;" ++ [nl])] /\ reboot_flag g1 1 = true /\
  c10_new_events g1 g2 = [ESend (s2p "1;255;3;0;19;" ++ [nl])] /\
  reboot_flag g3 1 = false /\ abs (g_ota g3) 1 = Requested (1, 1) /\
  c10_new_events g3 g4 = [].
Proof. vm_compute. repeat split; reflexivity. Qed.

(* restart mid-fetch: a second update call (no image: the stored one is used) takes a Fetching
   node back to Requested; an update call for a key without image, with an out-of-range type or
   with a failed load changes no session *)
Example C10_ex_restart :
  let g2 := run no_oracles 0 c10_g0 [Recv c10_cfgreq; Recv c10_blkreq] in
  let g3 := step no_oracles 0 g2 (UpdateFw [1] (VtInt 1) (VtInt 1) None) in
  let g4 := run no_oracles 0 g2 [UpdateFw [1] (VtInt 2) (VtInt 1) None; UpdateFw [1] (VtInt 70000) (VtInt 1) (Some c10_img);
                                 UpdateFw [1] (VtStr (s2p "x")) (VtInt 1) (Some c10_img); UpdateFw [1] (VtInt 3) (VtInt 1) (Some [])] in
  abs (g_ota g2) 1 = Fetching (1, 1) /\ abs (g_ota g3) 1 = Requested (1, 1) /\
  g_ota g4 = g_ota g2 /\ g_log g4 = g_log g2.
Proof. vm_compute. repeat split; reflexivity. Qed.

(* the reading note of DESIGN C10: a well-formed block request for a key WITHOUT stored image
   moves Offered -> Fetching silently *)
Example C10_ex_silent_advance :
  let g1 := step no_oracles 0 c10_g0 (Recv c10_cfgreq) in
  let g2 := step no_oracles 0 g1 (Recv (s2p "1;255;4;0;2;050005000000")) in
  abs (g_ota g1) 1 = Offered (1, 1) /\ abs (g_ota g2) 1 = Fetching (1, 1) /\ c10_new_events g1 g2 = [].
Proof. vm_compute. repeat split; reflexivity. Qed.

(* the threaded flavour: the same through the job queue *)
Example C10_ex_threaded :
  let cf := mkConfig tab_15 false false true true in
  let g := run no_oracles 0 (gw_init cf)
             [Recv (s2p "1;255;0;0;3;x"); Pump; UpdateFw [1] (VtInt 1) (VtInt 1) (Some c10_img);
              Recv c10_cfgreq; Pump] in
  abs (g_ota g) 1 = Offered (1, 1) /\
  exists t, last (g_log g) (ERaise OtherError) = ESend (s2p "1;255;4;0;1;010001000800d85f" ++ [nl]) /\
            nth 1 (rev (g_log g)) (ERaise OtherError) = ECallback (mkMsg 1 255 4 0 0 (s2p "01000100000000000000")) t.
Proof. vm_compute. split; [reflexivity|]. eexists. split; reflexivity. Qed.

Print Assumptions C10_spec_progress.
Print Assumptions C10_spec_no_reflash.
Print Assumptions C10_spec_restart_and_malformed.
Print Assumptions C10_abs_well_defined.
Print Assumptions C10_reachable_invariant.
Print Assumptions C10_step_invariant.
Print Assumptions C10_session_refines_request.
Print Assumptions C10_respond_fw_config_refines.
Print Assumptions C10_respond_fw_refines.
Print Assumptions C10_stream_other_subtype_noop.
Print Assumptions C10_other_lines_frame.
Print Assumptions C10_leaf_handlers_frame.
Print Assumptions C10_set_child_value_frame.
Print Assumptions C10_update_call.
Print Assumptions C10_update_key_sound.
Print Assumptions C10_session_refines_step.
Print Assumptions C10_gated_history.
Print Assumptions C10_gated_reply.
Print Assumptions C10_stream_reply_gated.
Print Assumptions C10_non_stream_line_not_answered_with_stream.
Print Assumptions C10_no_reflash_loop.
Print Assumptions C10_fetching_stable.
Print Assumptions C10_config_repeated_until_fetch.
Print Assumptions C10_config_answered_reachable.
Print Assumptions C10_block_request_served.
Print Assumptions C10_block_payload_never_fails.
Print Assumptions C10_restart.
Print Assumptions C10_update_without_effect.
Print Assumptions C10_stream_from_unknown_node_ignored.
Print Assumptions C10_malformed_ignored.
Print Assumptions C10_alert_changes_log_and_dirty_only.
Print Assumptions C10_malformed_iff.
Print Assumptions C10_malformed_exceptions.
Print Assumptions C10_reboot_window.
Print Assumptions C10_set_known_child_reboot_reply.
Print Assumptions C10_table_facts.
Print Assumptions C10_set_unknown_child_no_reboot.
Print Assumptions C10_set_line_reboot.
Print Assumptions C10_set_line_no_reboot_after_presentation.
Print Assumptions C10_node_presentation_clears_reboot.
Print Assumptions C10_session_terminates.
