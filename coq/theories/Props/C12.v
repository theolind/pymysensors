(* C12 - saving replaces the persistence file atomically.
   Model: Spec/AbstractFs.v (file system, crash semantics, assumptions), Model/FsSave.v (interpreter of
   the GENERATED programs Gen/SaveTrace.v, scenarios crash_scn / fault_scn, specifications crash_spec /
   fault_spec), Model/FsCode.v (code f = the programs of format f, damage_of f = measured decoder
   failure classes).  The save program is the statements of Persistence._save_sensors with _save_<fmt>
   inlined; "save_sensors" below means that body (save_sensors itself only takes the save lock around it). *)
From Coq Require Import List Bool Arith NArith.
From PMS Require Import Base.PyStr Spec.AbstractFs Model.FsSave Model.FsCode Proofs.FsProofs.
From PMS Require Model.FsConc Proofs.FsConcProofs.
Import ListNotations.
Local Open Scope nat_scope.

(* For both formats f, every type of saved states and all states old / new / next / stale ones, every
   prior configuration c (no file, or a good main file with or without a stale backup and / or a stale
   temp file, each of them good, partial or empty), every number w >= 1 of writes, every crash point
   (before call j of statement i; positions that do not exist = after the last call), every number
   nlost of most recent directory operations that did not reach the disk, every loss of unsynced data
   (all / part / none), whatever class ep / ee of the measured ones the decoder raises on a partial /
   empty file: start-up loads exactly new, or exactly old (nothing if there was no file); the disk is
   again a legal prior configuration; the next save (any w2 >= 1) runs to completion and a start-up
   after it loads exactly next. *)
Theorem C12_crash_atomic :
  forall (f : fmt) (St : Type) (old new next sb stt : St) (c : cfg) (w i j nlost : nat) (l : loss)
         (ep ee : cls) (w2 : nat),
    cfg_valid c = true -> 1 <= w -> 1 <= w2 -> In ep (damage_of f) -> In ee (damage_of f) ->
    crash_spec c old new next (crash_scn (code f) c old new next sb stt w i j nlost l ep ee w2).
Proof. exact crash_atomic. Qed.

(* Same quantifiers with "call j of statement i raises OSError" (open, any write, flush, fsync, close,
   either rename, remove; also isfile / access): the exception leaves save_sensors (the with block
   closes the file, the handler restores need_save); need_save is clear only if the new file is
   completely and durably in place; a start-up at this point loads exactly old or new; the next save by
   the same process succeeds and round-trips. *)
Theorem C12_fault_atomic :
  forall (f : fmt) (St : Type) (old new next sb stt : St) (c : cfg) (w i j : nat) (ep ee : cls) (w2 : nat),
    cfg_valid c = true -> 1 <= w -> 1 <= w2 -> In ep (damage_of f) -> In ee (damage_of f) ->
    fault_spec c old new next (fault_scn (code f) c old new next sb stt w i j ep ee w2).
Proof. exact fault_atomic. Qed.

(* the five configurations named by the property are covered *)
Theorem C12_five_configurations : forall c, In c five_cfgs -> cfg_valid c = true.
Proof. intros c H. simpl in H. repeat destruct H as [<-|H]; try reflexivity. contradiction. Qed.

(* sensitivity: without os.fsync, or with the two renames swapped, the statement is false *)
Theorem C12_fsync_needed :
  ~ crash_spec c_main_only TOld TNew TNext
      (crash_scn (with_save (code Json) (drop_fsync (save_prog_of Json)))
                 c_main_only TOld TNew TNext TSb TSt 1 99 0 0 LoseAll e_json e_json 1).
Proof. exact fsync_needed. Qed.

Theorem C12_order_needed :
  exists i j nlost l,
  ~ crash_spec c_main_only TOld TNew TNext
      (crash_scn (with_save (code Json) (swap_renames (save_prog_of Json)))
                 c_main_only TOld TNew TNext TSb TSt 1 i j nlost l e_json e_json 1).
Proof. exact order_needed. Qed.

(* ASSUMPTION made explicit: on a file system where an arbitrary SUBSET of the directory operations may
   be lost (instead of a suffix) the protocol of save_sensors is not atomic: complete save, crash,
   only the second rename lost -> no file at all.  Reported as an assumption, not a finding. *)
Theorem C12_atomic_save_unordered_metadata_refuted :
  exists (keep : nat -> bool) (l : loss),
  ~ crash_spec c_main_only TOld TNew TNext
      (crash_scn_gen (code Json) c_main_only TOld TNew TNext TSb TSt 1 None (crash_fs keep l) e_json e_json 1).
Proof.
  (* the complete save, then a crash that loses ONLY the second rename *)
  exists (fun i => negb (Nat.eqb i 2)), LoseAll. intros [H _]. vm_compute in H.
  destruct H as [H|H]; discriminate H.
Qed.

(* the statement position is searched, not hard-coded: a harmless rewrite of _save_<fmt> moves it *)
Ltac find_pos n fuel :=
  match fuel with
  | O => fail
  | S ?f => first [ exists n; vm_compute; repeat split; reflexivity | find_pos (S n) f ]
  end.

(* non-vacuity: both outcomes occur (old with the complete new temp file left beside it; new with the
   old state still in the backup), and losing the last directory operation turns new into old *)
Example C12_example_old : exists i,
  let o := crash_scn (code Json) c_main_only TOld TNew TNext TSb TSt 3 i 0 0 LoseAll e_json e_json 1 in
  co_loaded o = LOk [TOld] /\ co_cfg o = Some (mkCfg true None (Some KGood)).
Proof. find_pos 0 40. Qed.
Example C12_example_new : exists i,
  let o := crash_scn (code Json) c_main_only TOld TNew TNext TSb TSt 3 i 0 0 LoseAll e_json e_json 1 in
  co_loaded o = LOk [TNew] /\ co_cfg o = Some (mkCfg true (Some KGood) None).
Proof. find_pos 0 40. Qed.
Example C12_example_lost_rename : exists i,
  co_loaded (crash_scn (code Json) c_main_only TOld TNew TNext TSb TSt 3 i 0 0 LoseAll e_json e_json 1) = LOk [TNew] /\
  co_loaded (crash_scn (code Json) c_main_only TOld TNew TNext TSb TSt 3 i 0 1 LoseAll e_json e_json 1) = LOk [TOld].
Proof. find_pos 0 40. Qed.
Example C12_example_premises : cfg_valid c_main_only = true /\ In e_json (damage_of Json).
Proof. split; [reflexivity | left; reflexivity]. Qed.

(* D23: the scheduled save still being written when stop() makes the final save.
   Model: Model/FsConc.v (two threads inside the body of save_sensors over one file system, as before the lock: thread-local file object and
   `exists`, shared files and need_save; one preemption of the scheduled save) on top of the interpreter of the
   GENERATED programs (Gen/SaveTrace.v, Model/FsSave.v).  Tie: harness/impl/slowsave.py (real threads, the same
   three pause points). *)

(* pause/resume mean what they say: save_sensors preempted before call j of statement i and resumed at once IS
   save_sensors (all programs, states, positions) *)
Theorem C12_save_preempted_and_resumed_is_save :
  forall (St : Type) w (new : St) prog i j st,
    FsSave.exec w new None prog st =
    match FsConc.pause w new i j prog st with
    | (stp, FsSave.Crashed) => FsConc.resume w new i j prog stp
    | r => r
    end.
Proof.
  intros St w new prog. induction prog as [|ins rest IH]; intros i j st; [reflexivity|].
  destruct i; [apply FsConcProofs.split_here | apply FsConcProofs.split_later, IH].
Qed.

(* WITHOUT mutual exclusion of saves (the code before fix c9a1a32) the property is false: for both formats there is
   a schedule - the scheduled save preempted right before file_handle.flush(), a message, stop()'s final save run
   completely, the scheduled save resumed - after which stop()'s save has ended normally, the scheduled one has
   raised, there is no main file, and a start-up does not load the state held at stop *)
Theorem C12_stop_during_scheduled_save_unlocked_refuted :
  forall f : FsCode.fmt, exists i j,
    nth_error (FsCode.save_prog_of f) i = Some (AbstractFs.mkI AbstractFs.IFlush false true true) /\
    FsConc.cc_paused (FsConcProofs.d23_obs f i j) = true /\
    FsConc.cc_status2 (FsConcProofs.d23_obs f i j) = FsSave.Done /\
    FsConc.cc_status1 (FsConcProofs.d23_obs f i j) = FsSave.Raised /\
    AbstractFs.fs_isfile (FsConc.cc_fs (FsConcProofs.d23_obs f i j)) AbstractFs.Main = false /\
    FsConc.cc_loaded (FsConcProofs.d23_obs f i j) <> FsSave.LOk [FsProofs.TNext].
Proof. intros [|]; exists 6, 0; vm_compute; repeat split; discriminate. Qed.

(* WITH the lock (saves exclude each other: the scheduled save completely, the message, then stop()'s save): for
   both formats, every type of states, every prior configuration, all numbers of writes and measured decoder
   classes - stop()'s save runs to completion, leaves need_save clear and a start-up loads exactly the state held
   at stop *)
Theorem C12_stop_during_scheduled_save_locked :
  forall (f : FsCode.fmt) (St : Type) (old new1 new2 sb stt : St) (c : FsSave.cfg) (w : nat)
         (ep ee : AbstractFs.cls) (w2 : nat),
    FsSave.cfg_valid c = true -> 1 <= w -> 1 <= w2 ->
    In ep (FsCode.damage_of f) -> In ee (FsCode.damage_of f) ->
    FsSave.fo_status (FsConc.conc_locked (FsCode.code f) c old new1 new2 sb stt w ep ee w2) <> FsSave.Crashed /\
    FsSave.again_spec new2 (FsSave.fo_again (FsConc.conc_locked (FsCode.code f) c old new1 new2 sb stt w ep ee w2)).
Proof.
  intros f St old new1 new2 sb stt c w ep ee w2 Hc Hw Hw2 Hep Hee.
  destruct (fault_atomic_ev f St old new1 new2 sb stt c w None ep ee w2 I Hc Hw Hw2 Hep Hee) as (H1 & _ & _ & _ & H5).
  split; assumption.
Qed.

(* the other two pause points of the harness family (today: before os.fsync, statement 7, and before the first
   rename, statement 9) lose nothing even without the lock (as observed) *)
Example C12_unlocked_other_pause_points :
  forall f : FsCode.fmt,
    FsConc.cc_loaded (FsConcProofs.d23_obs f 7 0) = FsSave.LOk [FsProofs.TNext] /\
    FsConc.cc_loaded (FsConcProofs.d23_obs f 9 0) = FsSave.LOk [FsProofs.TNext].
Proof. intros [|]; vm_compute; split; reflexivity. Qed.


Print Assumptions C12_crash_atomic.
Print Assumptions C12_fault_atomic.
Print Assumptions C12_five_configurations.
Print Assumptions C12_fsync_needed.
Print Assumptions C12_order_needed.
Print Assumptions C12_atomic_save_unordered_metadata_refuted.
Print Assumptions C12_save_preempted_and_resumed_is_save.
Print Assumptions C12_stop_during_scheduled_save_unlocked_refuted.
Print Assumptions C12_stop_during_scheduled_save_locked.
