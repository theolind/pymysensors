(* C19 - behaviour depends only on the lines received.
   Part 1 (framing): proved for every byte stream, every segmentation, every decoder.
   Part 2 (flavours): state and MULTISET of emitted commands proved schedule and
   flavour independent; the ordered SEQUENCE claim is proved only for schedules
   that drain between lines (partial) and REFUTED in general (finding D11). *)
From Coq Require Import String List NArith ZArith Bool Permutation.
From PMS Require Import Base.PyStr Base.PyInt Base.Exn Model.Codec Model.Framing Model.JobFlavours
                        Proofs.FramingProofs Proofs.JobFlavourProofs Gen.FramingConsts.
Import ListNotations.

(* the terminator and the recv size the model assumes; the ten shape flags are written as
   `true` by the translator framing_consts.py, which stops on any other shape *)
Theorem C19_generated_facts :
  terminator = nl /\ (N.to_nat recv_size <> 0)%nat /\
  (encoding_is_utf8 && unicode_handling_is_replace && packetizer_body_as_modelled &&
   handle_line_adds_logic_job && sync_add_job_appends && async_add_job_runs_then_sends &&
   poll_queue_sends_run_job && run_job_pops_left_and_calls && send_drops_empty_message &&
   nested_jobs_only_produce_strings) = true.
Proof. vm_compute. repeat split; discriminate. Qed.

(* feeding the chunks cs one by one to data_received delivers exactly the decoded
   complete lines of the concatenated stream, in order, and keeps the
   unterminated tail; for every decoder, every chunk list (empty chunks, one
   byte chunks, chunks ending inside a multi-byte character or between CR and LF) *)
Theorem C19_framing_segmentation_independent :
  forall (dec : bytes -> pstr) (cs : list bytes),
    feed terminator dec proto_init cs =
    (mkProto (tail_of terminator (concat cs)), map dec (complete_lines terminator (concat cs))).
Proof. exact (framing_segmentation_independent terminator). Qed.

Theorem C19_framing_same_stream_same_lines :
  forall (dec : bytes -> pstr) (cs1 cs2 : list bytes),
    concat cs1 = concat cs2 -> feed terminator dec proto_init cs1 = feed terminator dec proto_init cs2.
Proof. intros dec cs1 cs2 H. rewrite !framing_segmentation_independent, H. reflexivity. Qed.

(* two different segmentations of the bytes of "€\r\n1\n": inside the 3-byte
   character and between CR and LF *)
Example C19_same_stream_example :
  let cs1 := [[226; 130]; [172; 13]; [10; 49]; []; [10]]%N in
  let cs2 := [[226; 130; 172; 13; 10; 49; 10]]%N in
  cs1 <> cs2 /\ concat cs1 = concat cs2 /\
  feed terminator (fun b => b) proto_init cs1 = (mkProto [], [[226; 130; 172; 13]; [49]]%N).
Proof. vm_compute. split; [discriminate|split; reflexivity]. Qed.

(* a later call continues from the residual buffer *)
Theorem C19_framing_resume :
  forall (dec : bytes -> pstr) (cs1 cs2 : list bytes),
    snd (feed terminator dec proto_init (cs1 ++ cs2)) =
    snd (feed terminator dec proto_init cs1) ++
    snd (feed terminator dec (fst (feed terminator dec proto_init cs1)) cs2).
Proof.
  intros. rewrite !framing_segmentation_independent. cbn [fst snd].
  rewrite feed_spec by (cbn [p_buffer]; apply tail_no_term). cbn [snd p_buffer].
  rewrite concat_app, (proj1 (lines_app terminator (concat cs1) (concat cs2))).
  apply map_app.
Qed.

(* the complete lines are what the stream says: no line contains the terminator
   and lines + terminators + tail give the stream back *)
Theorem C19_complete_lines_sound :
  forall s : bytes,
    Forall (fun l => mem_N terminator l = false) (complete_lines terminator s) /\
    mem_N terminator (tail_of terminator s) = false /\
    s = flat_map (fun l => l ++ [terminator]) (complete_lines terminator s) ++ tail_of terminator s.
Proof.
  exact (fun s => conj (complete_lines_no_terminator terminator s)
                       (conj (tail_no_term terminator s) (stream_reassembled terminator s))).
Qed.

(* the decoder is applied once per complete packet, never to a chunk *)
Theorem C19_framing_decodes_per_line :
  forall (dec : bytes -> pstr) (cs : list bytes),
    feed terminator dec proto_init cs =
    (fst (feed terminator (fun b => b) proto_init cs),
     map dec (snd (feed terminator (fun b => b) proto_init cs))).
Proof. intros. rewrite !framing_segmentation_independent. cbn [fst snd]. rewrite map_id. reflexivity. Qed.

(* TCPTransport.run's recv(recv_size) chunking is one such segmentation *)
Theorem C19_tcp_recv_chunking :
  forall (dec : bytes -> pstr) (s : bytes),
    feed terminator dec proto_init (chunks_of (N.to_nat recv_size) s) =
    (mkProto (tail_of terminator s), map dec (complete_lines terminator s)).
Proof. intros. apply recv_chunking_is_a_segmentation. exact (proj1 (proj2 C19_generated_facts)). Qed.

(* CRLF: the delivered line keeps the CR; the codec ignores it *)
Theorem C19_decode_ignores_trailing_cr : forall l : pstr, decode (l ++ [cr]) = decode l.
Proof. intro l. apply decode_ignores_trailing_space. vm_compute. reflexivity. Qed.

Theorem C19_crlf_line_decodes_like_lf :
  forall dec : bytes -> pstr,
    (forall b, dec (b ++ [cr]) = dec b ++ [cr]) ->
    forall b, decode (dec (b ++ [cr])) = decode (dec b).
Proof. intros dec H b. rewrite H. apply C19_decode_ignores_trailing_cr. Qed.

Example C19_crlf_premise_satisfiable :
  (forall b : bytes, (fun x : bytes => x) (b ++ [cr]) = (fun x : bytes => x) b ++ [cr]) /\
  decode (s2p "1;2;1;0;2;x" ++ [cr]) = Some (mkMsg 1 2 1 0 2 (s2p "x")).
Proof. split; [reflexivity|vm_compute; reflexivity]. Qed.

(* any placement of Pump ops: lines are taken FIFO, the state is the asyncio
   state after the lines already taken *)
Theorem C19_sync_state_is_async_prefix :
  forall (state : Type) (handler : state -> pstr -> state * option pstr * list pstr)
         (st0 : state) (ops : list op),
    exists d,
      recvs ops = d ++ pending_lines (s_queue (fst (sync_run state handler (mkSync st0 []) ops))) /\
      s_state (fst (sync_run state handler (mkSync st0 []) ops)) = fst (async_run state handler st0 d).
Proof.
  intros. destruct (sync_run state handler (mkSync st0 []) ops) as [m' out] eqn:R.
  destruct (sync_run_inv _ _ _ _ _ _ R) as [d [L [F _]]].
  exists d. rewrite async_run_spec. auto.
Qed.

(* once drained: same final state and same MULTISET of emitted commands as the
   asyncio gateway, for every placement of the pumps *)
Theorem C19_state_schedule_independent :
  forall (state : Type) (handler : state -> pstr -> state * option pstr * list pstr)
         (st0 : state) (ops : list op),
    s_queue (fst (sync_run state handler (mkSync st0 []) ops)) = [] ->
    s_state (fst (sync_run state handler (mkSync st0 []) ops))
      = fst (async_run state handler st0 (recvs ops)) /\
    Permutation (snd (sync_run state handler (mkSync st0 []) ops))
                (snd (async_run state handler st0 (recvs ops))).
Proof. exact state_schedule_independent. Qed.

Theorem C19_two_schedules_agree :
  forall (state : Type) (handler : state -> pstr -> state * option pstr * list pstr)
         (st0 : state) (ops1 ops2 : list op),
    recvs ops1 = recvs ops2 ->
    s_queue (fst (sync_run state handler (mkSync st0 []) ops1)) = [] ->
    s_queue (fst (sync_run state handler (mkSync st0 []) ops2)) = [] ->
    s_state (fst (sync_run state handler (mkSync st0 []) ops1))
      = s_state (fst (sync_run state handler (mkSync st0 []) ops2)) /\
    Permutation (snd (sync_run state handler (mkSync st0 []) ops1))
                (snd (sync_run state handler (mkSync st0 []) ops2)).
Proof.
  intros state handler st0 ops1 ops2 E Q1 Q2.
  destruct (state_schedule_independent state handler st0 ops1 Q1) as [S1 P1].
  destruct (state_schedule_independent state handler st0 ops2 Q2) as [S2 P2].
  rewrite E in *. split; [congruence|]. rewrite P1, P2. reflexivity.
Qed.

(* the premise "drained" can always be reached by finitely many more pumps *)
Theorem C19_drain_exists :
  forall (state : Type) (handler : state -> pstr -> state * option pstr * list pstr) (m : sync state),
    exists n, s_queue (fst (sync_run state handler m (repeat Pump n))) = [].
Proof. intros state handler [st q]. apply (pumps_drain state handler (List.length (pending_lines q))). reflexivity. Qed.

Example C19_drained_premise_satisfiable :
  s_queue (fst (sync_run mini_state mini_handler (mkSync d11_state []) d11_ops)) = [] /\
  recvs d11_ops = d11_lines.
Proof. vm_compute. split; reflexivity. Qed.

(* PARTIAL: when the pump drains the queue between consecutive lines the
   threaded gateway emits, per line, reply then nested jobs; the asyncio gateway
   nested jobs then reply; the SEQUENCES are equal when no line does both *)
Theorem C19_flavour_equiv_drained_partial :
  forall (state : Type) (handler : state -> pstr -> state * option pstr * list pstr)
         (st0 : state) (bs : list (pstr * nat)),
    drained_between state handler (mkSync st0 []) bs ->
    s_state (fst (sync_run state handler (mkSync st0 []) (blocks_ops bs)))
      = fst (async_run state handler st0 (map fst bs)) /\
    snd (sync_run state handler (mkSync st0 []) (blocks_ops bs))
      = sync_order (line_outputs state handler st0 (map fst bs)) /\
    snd (async_run state handler st0 (map fst bs))
      = async_order (line_outputs state handler st0 (map fst bs)) /\
    (Forall exclusive (line_outputs state handler st0 (map fst bs)) ->
     snd (sync_run state handler (mkSync st0 []) (blocks_ops bs))
       = snd (async_run state handler st0 (map fst bs))).
Proof. exact flavour_equiv_drained. Qed.

Example C19_drained_between_satisfiable :
  drained_between mini_state mini_handler (mkSync d11_state [])
    [(s2p "1;7;1;0;2;1", 2%nat); (s2p "1;255;3;0;6;0", 1%nat)] /\
  Forall exclusive (line_outputs mini_state mini_handler d11_state d11_lines).
Proof. split; [vm_compute; auto|exact d11_exclusive]. Qed.

(* REFUTED: a line that both replies and enqueues separates the flavours even
   when drained (no handler of the library does; observed by the monitor) *)
Theorem C19_drained_needs_exclusive_refuted :
  exists state handler st0 bs,
    drained_between state handler (mkSync st0 []) bs /\
    snd (sync_run state handler (mkSync st0 []) (blocks_ops bs))
      <> snd (async_run state handler st0 (map fst bs)).
Proof.
  exists unit, (fun _ _ => (tt, Some (s2p "reply"), [s2p "nested"])), tt, [(s2p "x", 2%nat)]. split.
  - simpl. auto.
  - vm_compute. discriminate.
Qed.

(* REFUTED (finding D11): with two lines pending the threaded gateway sends the
   nested job of the first line AFTER the reply to the second; the asyncio
   gateway before.  Witness: node 1 known, "1;7;1;0;2;1" then "1;255;3;0;6;0" *)
Theorem C19_flavour_equiv_refuted :
  exists (state : Type) (handler : state -> pstr -> state * option pstr * list pstr)
         (st0 : state) (ops : list op),
    s_queue (fst (sync_run state handler (mkSync st0 []) ops)) = [] /\
    Forall exclusive (line_outputs state handler st0 (recvs ops)) /\
    snd (sync_run state handler (mkSync st0 []) ops)
      <> snd (async_run state handler st0 (recvs ops)).
Proof. exact flavour_equiv_refuted. Qed.

(* the full ordered claim of the property (Model.JobFlavours.flavour_equiv_full:
   forall state handler st0 ops, drained -> sync sequence = async sequence) is false *)
Theorem C19_flavour_equiv_full_refuted : ~ flavour_equiv_full.
Proof. exact flavour_equiv_full_refuted. Qed.

Example C19_d11_witness :
  snd (sync_run mini_state mini_handler (mkSync d11_state []) d11_ops)
    = [s2p "1;255;3;0;6;M" ++ [nl]; s2p "1;255;3;0;19;" ++ [nl]] /\
  snd (async_run mini_state mini_handler d11_state (recvs d11_ops))
    = [s2p "1;255;3;0;19;" ++ [nl]; s2p "1;255;3;0;6;M" ++ [nl]].
Proof. exact (conj d11_sync d11_async). Qed.

Print Assumptions C19_generated_facts.
Print Assumptions C19_framing_segmentation_independent.
Print Assumptions C19_framing_same_stream_same_lines.
Print Assumptions C19_framing_resume.
Print Assumptions C19_complete_lines_sound.
Print Assumptions C19_framing_decodes_per_line.
Print Assumptions C19_tcp_recv_chunking.
Print Assumptions C19_decode_ignores_trailing_cr.
Print Assumptions C19_crlf_line_decodes_like_lf.
Print Assumptions C19_sync_state_is_async_prefix.
Print Assumptions C19_state_schedule_independent.
Print Assumptions C19_two_schedules_agree.
Print Assumptions C19_drain_exists.
Print Assumptions C19_flavour_equiv_drained_partial.
Print Assumptions C19_drained_needs_exclusive_refuted.
Print Assumptions C19_flavour_equiv_refuted.
Print Assumptions C19_flavour_equiv_full_refuted.
