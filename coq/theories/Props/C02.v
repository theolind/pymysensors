(* C02 - wire codec is a faithful, canonical round trip. *)
From Coq Require Import List NArith ZArith Bool String.
From PMS Require Import Base.PyStr Base.PyInt Base.Exn Model.Codec Proofs.CodecProofs Proofs.PyIntFacts.
Import ListNotations.

(* every integer survives str() then int() *)
Theorem C02_int_roundtrip : forall z : Z, parse (print z) = Some z.
Proof. exact parse_print. Qed.

(* encode then decode: same six fields, for every header in Z and every
   payload without ';' and without a trailing str.isspace character
   (inner line breaks included: stronger than the property asks) *)
Theorem C02_decode_encode :
  forall m : msg, wire_ok (m_payload m) = true -> decode (encode m) = Some m.
Proof. exact decode_encode. Qed.

(* decode then encode: one canonical line that decodes to the same message;
   a canonical input is reproduced byte for byte *)
Theorem C02_encode_decode_canonical :
  forall (l : pstr) (m : msg), decode l = Some m ->
    canonical (encode m) /\ decode (encode m) = Some m /\ (canonical l -> encode m = l).
Proof. exact encode_decode_canonical. Qed.

(* canonical lines end in exactly one newline and have six fields *)
Theorem C02_canonical_shape :
  forall l, canonical l ->
    exists b, l = b ++ [nl] /\ no_trailing isspace b = true /\ List.length (split semi b) = 6%nat.
Proof.
  intros l [m [W ->]]. apply wire_ok_spec in W as [W1 W2].
  exists (body_of m). split; [apply encode_body|]. split; [apply body_no_trailing; exact W2|].
  rewrite split_body by exact W1. reflexivity.
Qed.

(* copy = original with exactly the replaced fields overridden *)
Theorem C02_copy_spec :
  forall m r, wire_ok (m_payload m) = true -> copy m r = Ok (override m r).
Proof. exact copy_spec. Qed.

(* non-vacuity: a non-trivial spelling is accepted and canonicalised *)
Example C02_example :
  option_map encode (decode (s2p " 1_0;+2;-3; 0 ;007;hello w  ")) = Some (s2p "10;2;-3;0;7;hello w" ++ [nl]).
Proof. vm_compute. reflexivity. Qed.

Print Assumptions C02_int_roundtrip.
Print Assumptions C02_decode_encode.
Print Assumptions C02_encode_decode_canonical.
Print Assumptions C02_canonical_shape.
Print Assumptions C02_copy_spec.
