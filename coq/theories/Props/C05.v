(* C05 - every reply is the prescribed one, well-formed and correctly addressed.
   Machine: Model/Gateway.v (logic, all handlers, is_sensor, _route_message, set_child_value,
   wake-up flush, both task flavours) over the GENERATED tables and registry.  The reply table is
   Spec/ReplyTable.v (hand-written).  Oracles (awesomeversion, float(), clock) are universally
   quantified.  Proofs: Proofs/ReplyBase.v, ReplyProofs.v, ReplyInv.v, ReplyAddr.v. *)
From Coq Require Import List NArith ZArith Bool String.
From PMS Require Import Base.PyStr Base.PyInt Base.Exn Model.Codec Model.TableTypes Gen.Tables Model.Validate
  Model.Oracles Model.Hex Model.Ota Model.Gateway Spec.SerialApi Spec.ReplyTable
  Proofs.CodecProofs Proofs.ValidateProofs Proofs.GwInv
  Proofs.ReplyBase Proofs.ReplyProofs Proofs.ReplyInv Proofs.ReplyAddr.
Import ListNotations.
Open Scope Z_scope.

(* 0. finite facts *)
(* cfgv v g : g runs one of the five configurations (table of version v, the >= 2.0 flag of v) *)
Theorem C05_configurations : forall v g, cfgv v g <-> (cf_tab (g_cf g) = tab_of v /\ cf_ge20 (g_cf g) = ge20 v).
Proof. intros v g. unfold cfgv. tauto. Qed.

(* which handler function the generated registry resolves to, per version, against the
   hand-written table: message types ... *)
Theorem C05_type_resolution : forall v,
  type_handler (tab_of v) 0 = Some HPresentation /\ type_handler (tab_of v) 1 = Some HSet /\
  type_handler (tab_of v) 2 = Some HReq /\ type_handler (tab_of v) 3 = Some HInternal /\
  type_handler (tab_of v) 4 = Some HStream.
Proof.
  intro v. pose (g := gw_init (mkConfig (tab_of v) (ge20 v) true false false)).
  assert (F : facts g) by (apply facts_of_cfg; exists v; split; reflexivity).
  destruct (facts_spec g F) as (_ & _ & _ & _ & _ & _ & T). exact T.
Qed.

(* ... every internal sub-type of the version (act_of names what each handler function does) ... *)
Theorem C05_internal_resolution : forall v s, between 0 (max_sub v 3) s = true ->
  act_of (sub_handler (tab_of v) 3 s) = Some (internal_action v s).
Proof. exact internal_resolution. Qed.

(* ... and every stream sub-type *)
Theorem C05_stream_resolution : forall v s, between 0 (max_sub v 4) s = true ->
  sub_handler (tab_of v) 4 s =
  (if s =? 0 then Some HFwConfigReq else if s =? 2 then Some HFwReq else None).
Proof. exact stream_resolution. Qed.

(* Gateway._route_message in closed form: presentations are dropped; a command for a sleeping node
   is appended to that node's queue unless it is a stream command; everything else passes *)
Theorem C05_route_closed : forall v g x, cfgv v g ->
  route g x = if m_type x =? 0 then (g, None)
              else if withheld (vsleep g) x then (enqueue g x, None) else (g, Some x).
Proof. exact route_closed. Qed.

(* 1. the reply table *)
(* For each of the five configurations, all oracles and clocks, every state with the C01
   invariant and every accepted line whose handling does not include the wake-up flush (C08):
   the strings handed to tasks.add_job inside the call (ns: sent at once in the asyncio flavour,
   queued as send jobs in the threaded flavour), followed by the reply returned to the caller,
   are exactly the encodings of the prescribed messages that routing lets through, in order; and
   every node's hold queue grows by exactly the encodings of the prescribed messages withheld
   for it.  Nothing else is sent, queued or withheld. *)
Theorem C05_reply_table :
  forall orc clock v g l m g' r,
    cfgv v g -> Inv orc g -> accepted orc g l m ->
    wakes_up v (view_of clock g) m = false ->
    logic orc clock g l = Ok (g', r) ->
    let P := prescribed v (view_of clock g) m in
    exists ns,
      g_cf g' = g_cf g /\
      (if cf_async (g_cf g)
       then sends (g_log g') = sends (g_log g) ++ ns /\ g_jobs g' = g_jobs g
       else sends (g_log g') = sends (g_log g) /\ g_jobs g' = g_jobs g ++ map JSend ns) /\
      ns ++ olist r = emitted_part (vw_sleeping (view_of clock g)) P /\
      (forall k, queue_of g' k = queue_of g k ++ withheld_part (vw_sleeping (view_of clock g)) k P).
Proof. exact reply_table. Qed.

(* the same read off the transport log, one inbound line in each task flavour.  asyncio:
   handle_line runs logic at once and sends the reply *)
Theorem C05_reply_table_asyncio :
  forall orc clock v g l m,
    cfgv v g -> Inv orc g -> accepted orc g l m ->
    wakes_up v (view_of clock g) m = false -> cf_async (g_cf g) = true ->
    let P := prescribed v (view_of clock g) m in
    let g' := recv orc clock g l in
    sends (g_log g') = sends (g_log g) ++ emitted_part (vsleep g) P /\ g_jobs g' = g_jobs g /\
    forall k, queue_of g' k = queue_of g k ++ withheld_part (vsleep g) k P.
Proof.
  intros orc clock v g l m C I A WU AS P g'. subst P g'. unfold recv. rewrite AS.
  destruct (logic_send_table orc clock v g l m C I A WU) as (ns & r & E & O & Q). rewrite AS in O.
  rewrite <- E. exact (conj (proj1 O) (conj (proj2 O) Q)).
Qed.

(* threaded: the line waits in the job queue; the pump iteration that runs it sends the reply at
   once, and the commands produced inside the call (ns) join the job queue as send jobs *)
Theorem C05_reply_table_threaded :
  forall orc clock v g l rest m,
    cfgv v g -> Inv orc g -> cf_async (g_cf g) = false ->
    g_jobs g = JLogic l :: rest ->
    accepted orc (set_jobs g rest) l m -> wakes_up v (view_of clock (set_jobs g rest)) m = false ->
    let P := prescribed v (view_of clock (set_jobs g rest)) m in
    let g' := pump orc clock g in
    exists ns r, ns ++ olist r = emitted_part (vsleep g) P /\
      sends (g_log g') = sends (g_log g) ++ olist r /\ g_jobs g' = rest ++ map JSend ns /\
      forall k, queue_of g' k = queue_of g k ++ withheld_part (vsleep g) k P.
Proof.
  intros orc clock v g l rest m C I AS J A WU P g'. subst P g'. unfold pump. rewrite J.
  destruct (logic_send_table orc clock v (set_jobs g rest) l m C (Inv_set_jobs orc g rest I) A WU)
    as (ns & r & E & O & Q).
  change (cf_async (g_cf (set_jobs g rest))) with (cf_async (g_cf g)) in O. rewrite AS in O.
  exists ns, r. exact (conj E (conj (proj1 O) (conj (proj2 O) Q))).
Qed.

(* "exactly one presentation request and nothing else": the table never prescribes two commands *)
Theorem C05_at_most_one_command : forall v vw m, (List.length (prescribed v vw m) <= 1)%nat.
Proof.
  intros v vw m. destruct (prescribed_shape v vw m) as [E|[[E _]|[(x & E & _)|[E _]]]]; rewrite E; simpl; auto.
Qed.

(* 2. no spurious output *)
(* a line that does not decode, or does not validate for the configured version: same state
   (nothing sent, nothing queued, nothing withheld), no reply *)
Theorem C05_no_spurious_output_rejected :
  forall orc clock g l,
    (decode l = None \/ exists m, decode l = Some m /\ gvalidate orc g m = false) ->
    logic orc clock g l = Ok (g, None).
Proof. exact rejected_is_noop. Qed.

(* an accepted message for which the table prescribes nothing *)
Theorem C05_no_spurious_output_silent :
  forall orc clock v g l m g' r,
    cfgv v g -> Inv orc g -> accepted orc g l m ->
    wakes_up v (view_of clock g) m = false ->
    prescribed v (view_of clock g) m = [] ->
    logic orc clock g l = Ok (g', r) ->
    r = None /\ sends (g_log g') = sends (g_log g) /\ g_jobs g' = g_jobs g /\
    forall k, queue_of g' k = queue_of g k.
Proof.
  intros orc clock v g l m g' r C I A WU P L.
  destruct (reply_table orc clock v g l m g' r C I A WU L) as (ns & _ & O & E & Q).
  rewrite P in E, Q. cbn in E. apply app_eq_nil in E as [-> E].
  split; [destruct r; [discriminate E|reflexivity]|].
  assert (QQ : forall k, queue_of g' k = queue_of g k) by (intro k; rewrite Q; apply app_nil_r).
  destruct (cf_async (g_cf g)); destruct O as [O1 O2]; cbn [map] in O2; rewrite app_nil_r in *; auto.
Qed.

(* 3. every emitted string is canonical and valid *)
(* the invariant on stored data (Inv5): node ids in 0..255; every reported value was accepted as
   a set message of its node/child/sub-type and is carriable; every pending desired value is
   carriable (that it validates is Inv of C01); every withheld string, every queued send job and
   every string in the transport log is the encoding of a carriable message that validates;
   firmware data are bytes.  It holds in every reachable state (op_wire: controller calls with
   carriable values and C01's firmware images; set_child_value's node id is arbitrary). *)
Theorem C05_invariant_reachable :
  forall orc clock v cf ops,
    cf_tab cf = tab_of v -> cf_ge20 cf = ge20 v -> Forall op_wire ops ->
    let g := run orc clock (gw_init cf) ops in Inv5 orc v g /\ Inv orc g /\ cfgv v g.
Proof. exact reachable_Inv5. Qed.

(* one dispatcher call keeps it, and its reply string is such an encoding (all handlers,
   including the wake-up flush) *)
Theorem C05_logic_keeps_invariant :
  forall orc clock v g l g' r,
    cfgv v g -> Inv orc g -> Inv5 orc v g -> logic orc clock g l = Ok (g', r) ->
    Inv5 orc v g' /\ forall s, r = Some s -> good orc v s.
Proof. exact logic5. Qed.

(* what op_wire demands of a history's controller calls: only that set_child_value is given a
   value the wire format can carry and update_fw an image as in C01 - nothing about node ids *)
Theorem C05_op_wire_reading : forall o,
  op_wire o <-> match o with
                | SetChild _ _ _ x _ _ => carriable x
                | UpdateFw _ _ _ b => image_ok b
                | _ => True
                end.
Proof. destruct o; simpl; tauto. Qed.

(* Over ALL histories from the initial state, both flavours, any inbound text, controller calls
   with carriable values and ANY node / child id (op_wire): every string ever handed to the
   transport, every queued send job and every withheld string is canonical, decodes to the message
   it encodes, which validates for the configured version and carries a node id in 0..255
   (withheld: the id of the node in whose queue it waits).  No condition on the node id given to
   set_child_value is needed: is_sensor asks only a node id in range(BROADCAST_ID + 1) to present
   itself. *)
Theorem C05_emitted_canonical_valid :
  forall orc clock cf ops,
    cfg_ok cf -> Forall op_wire ops ->
    let g := run orc clock (gw_init cf) ops in
    (forall l, In (ESend l) (g_log g) -> line_ok orc g l) /\
    (forall l, In (JSend l) (g_jobs g) -> line_ok orc g l) /\
    (forall k nd l, get_node g k = Some nd -> In l (n_queue nd) ->
       line_ok orc g l /\ exists m, decode l = Some m /\ m_node m = k).
Proof. exact emitted_canonical_valid. Qed.

(* the building blocks: the six prescribed commands that do not depend on stored data (presentation
   and discover request, reboot order, config, time and id reply) validate for every version that
   sends them; the set reply to a req and the stream responses are covered by
   C05_logic_keeps_invariant *)
Theorem C05_replies_validate :
  forall orc v n, 0 <= n <= 255 ->
    (v_ge20 v = true -> goodmsg orc v (presentation_request n) /\ goodmsg orc v (discover_request 255)) /\
    goodmsg orc v (reboot_order n) /\
    (forall b : bool, goodmsg orc v (mkMsg n 255 3 0 6 (s2p (if b then "M" else "I")%string))) /\
    (forall clock, goodmsg orc v (mkMsg n 255 3 0 1 (print clock))) /\
    (forall c i, 1 <= i <= 254 -> goodmsg orc v (mkMsg n c 3 0 4 (print i))).
Proof.
  intros orc v n R.
  split; [intro G; split; [exact (good_presentation_request orc v n G R)|exact (good_discover orc v G)]|].
  split; [exact (good_reboot orc v n R)|]. split; [intro b; exact (good_config orc v n b R)|].
  split; [intro c; exact (good_time orc v n c R)|]. intros c i Ri. exact (good_id_response orc v n c i R Ri).
Qed.

(* validation depends on the ack flag only through "ack is 0 or 1": a value accepted in a set
   message is accepted in the reply to a request, whatever the request's ack flag *)
Theorem C05_validate_ack_independent :
  forall orc v n c ty a a' s p, vld orc v (mkMsg n c ty a s p) = true -> (a' = 0 \/ a' = 1) ->
    vld orc v (mkMsg n c ty a' s p) = true.
Proof. exact vld_ack. Qed.

(* 4. addressing of the replies *)
(* the table: every prescribed command goes to the sender of the inbound message, except the
   discover request (broadcast) *)
Theorem C05_prescribed_addressing :
  forall v vw m x, In x (prescribed v vw m) ->
    m_node x = m_node m \/
    (x = discover_request (m_child m) /\ m_type m = 3 /\ internal_action v (m_sub m) = Discover).
Proof.
  intros v vw m x H.
  destruct (prescribed_shape v vw m) as [E|[[E _]|[(y & E & K & _)|(E & T & A)]]]; rewrite E in H;
    [destruct H| | |]; destruct H as [<-|[]]; [left; reflexivity|left; exact K|right; auto].
Qed.

(* a presentation request goes to the sender, on >= 2.0 only, and only when the sender or the
   child concerned is not known *)
Theorem C05_presentation_request_addressing :
  forall v vw m x, In x (prescribed v vw m) -> m_type x = 3 -> m_sub x = 19 ->
    x = presentation_request (m_node m) /\ v_ge20 v = true /\
    (known vw (m_node m) = false \/ vw_child vw (m_node m) (m_child m) = false).
Proof.
  intros v vw m x H T S.
  destruct (prescribed_shape v vw m) as [E|[(E & G & K)|[(y & E & _ & N)|[E _]]]]; rewrite E in H;
    [destruct H| | |]; destruct H as [<-|[]].
  - auto.
  - destruct (N T S).
  - discriminate S.
Qed.

(* the machine: every string one call emits or withholds encodes a prescribed message addressed
   to the sender (withheld: in the sender's queue), or is the broadcast discover request *)
Theorem C05_reply_addressing :
  forall orc clock v g l m g' r,
    cfgv v g -> Inv orc g -> accepted orc g l m ->
    wakes_up v (view_of clock g) m = false ->
    logic orc clock g l = Ok (g', r) ->
    exists ns,
      (if cf_async (g_cf g)
       then sends (g_log g') = sends (g_log g) ++ ns /\ g_jobs g' = g_jobs g
       else sends (g_log g') = sends (g_log g) /\ g_jobs g' = g_jobs g ++ map JSend ns) /\
      (forall s, In s (ns ++ olist r) ->
         exists x, s = encode x /\ In x (prescribed v (view_of clock g) m) /\
                   (m_node x = m_node m \/ (x = discover_request (m_child m) /\ m_node x = 255))) /\
      (forall k, exists q, queue_of g' k = queue_of g k ++ q /\
         forall s, In s q ->
           exists x, s = encode x /\ In x (prescribed v (view_of clock g) m) /\ m_node x = k /\
                     (k = m_node m \/ (x = discover_request (m_child m) /\ k = 255))).
Proof.
  intros orc clock v g l m g' r C I A WU L.
  destruct (reply_table orc clock v g l m g' r C I A WU L) as (ns & _ & O & E & Q).
  exists ns. split; [exact O|]. split.
  - intros s H. rewrite E in H. apply in_emitted_part in H as (x & HX & ->).
    exists x. split; [reflexivity|]. split; [exact HX|].
    destruct (C05_prescribed_addressing _ _ _ _ HX) as [K|(K & _)]; [left; exact K|right; split; [exact K|]].
    rewrite K. reflexivity.
  - intro k. exists (withheld_part (vw_sleeping (view_of clock g)) k (prescribed v (view_of clock g) m)).
    split; [apply Q|]. intros s H. apply in_withheld_part in H as (x & HX & -> & K & _).
    exists x. split; [reflexivity|]. split; [exact HX|]. split; [exact K|].
    destruct (C05_prescribed_addressing _ _ _ _ HX) as [K'|(K' & _)]; [left; congruence|right; split; [exact K'|]].
    rewrite <- K, K'. reflexivity.
Qed.

(* the controller call set_child_value: the commands it emits or withholds (closed form
   set_child_commands: a presentation request to sid when node or child is unknown on >= 2.0
   and sid is a node id, 0..255;
   nothing while the node sleeps - the value is stored as desired state; else the validated set
   command with the caller's message type / ack) all carry the node id given by the caller *)
Theorem C05_set_child_value_addressing :
  forall orc clock v g sid cid vt x mt a g',
    cfgv v g -> Inv orc g ->
    set_child_value orc g sid cid vt x mt a = Ok g' ->
    let N := set_child_commands clock v g sid cid vt x mt a in
    (if cf_async (g_cf g)
     then sends (g_log g') = sends (g_log g) ++ emitted_part (vsleep g) N /\ g_jobs g' = g_jobs g
     else sends (g_log g') = sends (g_log g) /\ g_jobs g' = g_jobs g ++ map JSend (emitted_part (vsleep g) N)) /\
    (forall k, queue_of g' k = queue_of g k ++ withheld_part (vsleep g) k N) /\
    (forall y, In y N -> m_node y = sid).
Proof.
  intros orc clock v g sid cid vt x mt a g' C I H N.
  destruct (set_child_value_eff orc clock v g sid cid vt x mt a g' C I H) as (_ & _ & O & Q).
  split; [exact O|]. split; [exact Q|].
  subst N. unfold set_child_commands, unknown_req, unknown_reply.
  destruct (guard_ok clock g sid (Some cid)).
  - destruct (vsleep g sid); [intros y []|]. destruct (vt_int vt); [|intros y []].
    intros y [<-|[]]. reflexivity.
  - destruct (node_id_ok sid); [|intros y []].
    destruct (v_ge20 v); [|intros y []]. intros y [<-|[]]. reflexivity.
Qed.

(* non-vacuity *)
Example C05_ex_req_answered :
  let g := run no_oracles 0 (gw_init cf22) hist1 in
  new_sends g (step no_oracles 0 g (Recv (s2p "1;0;2;1;2;"))) = [s2p "1;0;1;1;2;1" ++ [nl]] /\
  prescribed V22 (view_of 0 g) (mkMsg 1 0 2 1 2 []) = [mkMsg 1 0 1 1 2 (s2p "1")].
Proof. exact ex_req_answered. Qed.

Example C05_ex_req_no_value :
  let g := run no_oracles 0 (gw_init cf22) hist1 in
  new_sends g (step no_oracles 0 g (Recv (s2p "1;0;2;0;3;"))) = [] /\
  prescribed V22 (view_of 0 g) (mkMsg 1 0 2 0 3 []) = [].
Proof. exact ex_req_no_value. Qed.

Example C05_ex_unknown_child_22 :
  let g := run no_oracles 0 (gw_init cf22) hist1 in
  new_sends g (step no_oracles 0 g (Recv (s2p "1;7;2;0;2;"))) = [s2p "1;255;3;0;19;" ++ [nl]] /\
  prescribed V22 (view_of 0 g) (mkMsg 1 7 2 0 2 []) = [presentation_request 1].
Proof. exact ex_unknown_child_22. Qed.

Example C05_ex_unknown_child_15 :
  let g := run no_oracles 0 (gw_init cf15) hist1 in
  new_sends g (step no_oracles 0 g (Recv (s2p "1;7;2;0;2;"))) = [] /\
  prescribed V15 (view_of 0 g) (mkMsg 1 7 2 0 2 []) = [].
Proof. exact ex_unknown_child_15. Qed.

Example C05_ex_internal_replies :
  let g := run no_oracles 1700000000 (gw_init cf22) hist1 in
  new_sends g (run no_oracles 1700000000 g
                 [Recv (s2p "1;255;3;0;6;0"); Recv (s2p "1;255;3;1;1;"); Recv (s2p "255;255;3;0;3;");
                  Recv (s2p "0;255;3;0;14;Gateway startup complete.")]) =
  [s2p "1;255;3;0;6;M" ++ [nl]; s2p "1;255;3;0;1;1700000000" ++ [nl]; s2p "255;255;3;0;4;2" ++ [nl];
   s2p "255;255;3;0;20;" ++ [nl]].
Proof. exact ex_internal_replies. Qed.

Example C05_ex_threaded_nested :
  let g := run no_oracles 0 (gw_init cf22t) [Recv (s2p "9;3;1;0;2;1"); Pump] in
  g_jobs g = [JSend (s2p "9;255;3;0;19;" ++ [nl])] /\ sends (g_log g) = [] /\
  sends (g_log (step no_oracles 0 g Pump)) = [s2p "9;255;3;0;19;" ++ [nl]].
Proof. exact ex_threaded_nested. Qed.

Example C05_ex_withheld :
  let g := run no_oracles 0 (gw_init cf22) (hist1 ++ [Recv (s2p "1;255;3;0;32;500")]) in
  let g' := step no_oracles 0 g (Recv (s2p "1;0;2;0;2;")) in
  vsleep g 1 = true /\ new_sends g g' = [] /\ queue_of g' 1 = queue_of g 1 ++ [s2p "1;0;1;0;2;1" ++ [nl]].
Proof. exact ex_withheld. Qed.

Example C05_ex_reply_table_premises :
  let g := run no_oracles 0 (gw_init cf22) hist1 in
  cfgv V22 g /\ accepted no_oracles g (s2p "1;0;2;1;2;") (mkMsg 1 0 2 1 2 []) /\
  wakes_up V22 (view_of 0 g) (mkMsg 1 0 2 1 2 []) = false /\ g_sensors g <> [].
Proof. exact ex_reply_table_premises. Qed.

(* corner cases worth knowing (consistent with the table, see notes/C05-proofs.md) *)
Example C05_ex_discover_withheld :
  let g := run no_oracles 0 (gw_init cf22)
             [Recv (s2p "255;255;0;0;3;x"); Recv (s2p "255;0;0;0;3;relay"); Recv (s2p "255;255;3;0;32;500")] in
  let g' := step no_oracles 0 g (Recv (s2p "0;255;3;0;14;ready")) in
  vsleep g 255 = true /\ new_sends g g' = [] /\ queue_of g' 255 = [s2p "255;255;3;0;20;" ++ [nl]].
Proof. exact ex_discover_withheld. Qed.

Example C05_ex_id_response_copies_child :
  sends (g_log (run no_oracles 0 (gw_init cf22) [Recv (s2p "255;-3;3;1;3;")])) = [s2p "255;-3;3;0;4;1" ++ [nl]].
Proof. exact ex_id_response_copies_child. Qed.

(* set_child_value(300, 0, 2, "1") on a 2.2 gateway (asyncio and threaded) satisfies op_wire and
   changes nothing: 300 is not a node id, so no command is sent, queued or withheld *)
Example C05_ex_set_child_out_of_range_silent :
  let ops := [SetChild 300 0 (VtInt 2) (PS (s2p "1")) None None] in
  Forall op_wire ops /\
  run no_oracles 0 (gw_init cf22) ops = gw_init cf22 /\
  run no_oracles 0 (gw_init cf22t) ops = gw_init cf22t.
Proof. exact ex_set_child_out_of_range_silent. Qed.

(* an unknown node with a valid id is still asked to present itself *)
Example C05_ex_set_child_unknown_in_range :
  sends (g_log (run no_oracles 0 (gw_init cf22) [SetChild 200 0 (VtInt 2) (PS (s2p "1")) None None])) =
  [s2p "200;255;3;0;19;" ++ [nl]].
Proof. exact ex_set_child_unknown_in_range. Qed.

Print Assumptions C05_configurations.
Print Assumptions C05_type_resolution.
Print Assumptions C05_internal_resolution.
Print Assumptions C05_stream_resolution.
Print Assumptions C05_route_closed.
Print Assumptions C05_reply_table.
Print Assumptions C05_reply_table_asyncio.
Print Assumptions C05_reply_table_threaded.
Print Assumptions C05_at_most_one_command.
Print Assumptions C05_no_spurious_output_rejected.
Print Assumptions C05_no_spurious_output_silent.
Print Assumptions C05_invariant_reachable.
Print Assumptions C05_logic_keeps_invariant.
Print Assumptions C05_op_wire_reading.
Print Assumptions C05_emitted_canonical_valid.
Print Assumptions C05_replies_validate.
Print Assumptions C05_validate_ack_independent.
Print Assumptions C05_prescribed_addressing.
Print Assumptions C05_presentation_request_addressing.
Print Assumptions C05_reply_addressing.
Print Assumptions C05_set_child_value_addressing.
