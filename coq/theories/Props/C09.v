(* C09 - OTA serves exactly the firmware it advertised. *)
From Coq Require Import String List NArith ZArith Bool Lia ZifyBool.
From PMS Require Import Base.PyStr Base.Exn Model.Hex Model.Ota Model.IntelHex Model.OtaServe
     Spec.OtaSpec Gen.OtaConsts
     Proofs.HexProofs Proofs.OtaProofs Proofs.OtaServeProofs Proofs.IntelHexProofs.
Import ListNotations.

(* the model's block size, page size and pad byte are the literals of ota.py (regenerated each run) *)
Theorem C09_constants :
  fw_block_size = src_fw_block_size /\ N.of_nat fw_page_size = src_fw_page_size /\
  fw_pad_byte = src_fw_pad_byte.
Proof. repeat split; vm_compute; reflexivity. Qed.

(* what prepare_fw builds, for every image of every length *)
Theorem C09_prepare_shape : forall img : list N,
  exists k,
    fw_data (prepare_fw img) = img ++ repeat 255%N k /\
    (1 <= k <= 128)%nat /\
    (k = 128%nat <-> List.length img mod 128 = 0)%nat /\
    (List.length (fw_data (prepare_fw img)) mod 128 = 0)%nat /\
    Z.of_nat (List.length (fw_data (prepare_fw img))) = (16 * fw_blocks (prepare_fw img))%Z /\
    fw_crc (prepare_fw img) = crc16_modbus (fw_data (prepare_fw img)).
Proof. exact prepare_shape. Qed.

Theorem C09_prepare_bytes : forall img, bytes_ok img = true -> bytes_ok (fw_data (prepare_fw img)) = true.
Proof. exact prepare_fw_bytes. Qed.

(* the advertised number of 16-byte blocks, in index order, is the data *)
Theorem C09_blocks_concat : forall (D : list N) (B : nat), List.length D = (16 * B)%nat ->
  concat (map (fun i => fw_block D (Z.of_nat i)) (seq 0 B)) = D.
Proof. intros D B H. apply blocks_concat. lia. Qed.

Theorem C09_prepared_blocks : forall img,
  List.length (fw_data (prepare_fw img)) = (16 * Z.to_nat (fw_blocks (prepare_fw img)))%nat.
Proof. intros img. pose proof (prepare_fw_blocks img). lia. Qed.

Theorem C09_block_length : forall (D : list N) (i : nat),
  (16 * i + 16 <= List.length D)%nat -> List.length (fw_block D (Z.of_nat i)) = 16%nat.
Proof.
  intros D i H. rewrite fw_block_nonneg, Nat2Z.id, firstn_length, skipn_length by lia. lia.
Qed.

Theorem C09_block_beyond : forall (D : list N) (i : Z),
  (Z.of_nat (List.length D) <= 16 * i)%Z -> fw_block D i = [].
Proof.
  intros D i H. rewrite fw_block_nonneg, skipn_all2 by lia. reflexivity.
Qed.

(* any order, any repetition: a node that asked for every index at least once
   reassembles the data *)
Theorem C09_reassemble_any_order : forall (D : list N) (B : nat) (reqs : list Z),
  List.length D = (16 * B)%nat ->
  (forall i, (i < B)%nat -> In (Z.of_nat i) reqs) ->
  reassemble B (map (fun j => (j, fw_block D j)) reqs) = D.
Proof.
  intros D B reqs HL Hall. unfold reassemble.
  etransitivity; [|apply (blocks_concat D B)]; [f_equal|lia].
  apply map_ext_in. intros i Hi. apply in_seq in Hi.
  apply answer_for_served. apply Hall. lia.
Qed.

Theorem C09_response_payload : forall t v i fw,
  word_ok t = true -> word_ok v = true -> word_ok i = true ->
  fw_response_payload t v i fw =
    Ok (hexlify (le16 t ++ le16 v ++ le16 i) ++ hexlify (fw_block (fw_data fw) i)).
Proof. exact fw_response_payload_ok. Qed.

(* the node reads back the type, version and index it asked for, and the block *)
Theorem C09_response_echo : forall t v i fw p,
  bytes_ok (fw_data fw) = true ->
  fw_response_payload t v i fw = Ok p ->
  parse_response p = Ok ([t; v; i], fw_block (fw_data fw) i) /\
  p = hexlify (le16 t ++ le16 v ++ le16 i) ++ hexlify (fw_block (fw_data fw) i).
Proof. exact response_echo. Qed.

Theorem C09_config_payload : forall t v fw,
  word_ok t = true -> word_ok v = true -> fware_ok fw ->
  fw_config_payload t v fw =
    Ok (hexlify (le16 t ++ le16 v ++ le16 (fw_blocks fw) ++ le16 (fw_crc fw))).
Proof. exact fw_config_payload_ok. Qed.

(* boundary: with more than 65535 blocks (image >= 1 MiB - 127 bytes) the config
   response cannot be packed: struct.error (outside the property's 1..32768 range) *)
Theorem C09_config_payload_overflow : forall t v fw,
  (65535 < fw_blocks fw)%Z -> fw_config_payload t v fw = Raise StructError.
Proof.
  intros t v fw H. unfold fw_config_payload. apply fw_int_to_hex_err.
  unfold words_ok. cbn [forallb].
  assert (E : word_ok (fw_blocks fw) = false) by (unfold word_ok; lia).
  rewrite E, !andb_false_r. reflexivity.
Qed.

(* the controller side reads back the advertised (type, version, blocks, crc) *)
Theorem C09_config_echo : forall t v fw p,
  fw_config_payload t v fw = Ok p ->
  fw_hex_to_int p 4 = Ok [t; v; fw_blocks fw; fw_crc fw].
Proof. intros t v fw p H. exact (fw_hex_int_roundtrip [t; v; fw_blocks fw; fw_crc fw] p H). Qed.

(* hexlify / unhexlify: both directions, all inputs *)
Theorem C09_unhexlify_hexlify : forall b, bytes_ok b = true -> unhexlify (hexlify b) = Ok b.
Proof. exact unhexlify_hexlify. Qed.

Theorem C09_hexlify_unhexlify : forall s b, unhexlify s = Ok b ->
  bytes_ok b = true /\ hexlify b = map lower_ascii s.
Proof. exact unhexlify_sound. Qed.

(* struct pack / unpack: both directions, all inputs; the only error of pack *)
Theorem C09_unpack_pack : forall ws b, pack_le16 ws = Ok b -> unpack_le16 (List.length ws) b = Ok ws.
Proof. exact unpack_pack. Qed.

Theorem C09_pack_unpack : forall n b ws, bytes_ok b = true -> unpack_le16 n b = Ok ws ->
  pack_le16 ws = Ok b /\ List.length ws = n /\ words_ok ws = true.
Proof. exact pack_unpack. Qed.

Theorem C09_pack_total : forall ws,
  (words_ok ws = true -> pack_le16 ws = Ok (concat (map le16 ws))) /\
  (words_ok ws = false -> pack_le16 ws = Raise StructError).
Proof. intros ws. split; [exact (pack_le16_ok ws)|exact (pack_le16_err ws)]. Qed.

Theorem C09_fw_hex_int_roundtrip : forall ws s,
  fw_int_to_hex ws = Ok s -> fw_hex_to_int s (List.length ws) = Ok ws.
Proof. exact fw_hex_int_roundtrip. Qed.

Theorem C09_fw_hex_to_int_errors : forall s n e, fw_hex_to_int s n = Raise e ->
  e = ValueError \/ e = BinasciiError \/ e = StructError.
Proof. exact fw_hex_to_int_errors. Qed.

Theorem C09_crc_range : forall b, bytes_ok b = true -> word_ok (crc16_modbus b) = true.
Proof. exact crc16_range. Qed.

(* catalogue check value of CRC-16/MODBUS *)
Example C09_crc_check_value : crc16_modbus (s2p "123456789") = 19255%Z (* 0x4B37 *).
Proof. vm_compute. reflexivity. Qed.

(* after ANY history of stream requests a block request is either not answered
   or answered by a function of the firmware dict and the request payload *)
Theorem C09_answers_history_independent : forall st hist n p,
  let st' := fst (serve_all st hist) in
  snd (respond_fw st' n p) = Ok None \/ snd (respond_fw st' n p) = block_answer (o_fw st) p.
Proof. exact block_answer_history_independent. Qed.

Theorem C09_requests_keep_firmware : forall rs st, o_fw (fst (serve_all st rs)) = o_fw st.
Proof. exact serve_all_keeps_fw. Qed.

Theorem C09_block_request_never_raises : forall st n p e, snd (respond_fw st n p) <> Raise e.
Proof.
  intros st n p e. destruct (respond_fw_pure st n p) as [H|H]; rewrite H;
    [discriminate|apply block_answer_no_raise].
Qed.

(* a config response advertises the firmware stored under the scheduled id *)
Theorem C09_config_advertises : forall st n p r,
  snd (respond_fw_config st n p) = Ok (Some r) ->
  exists t v fw,
    (ns_get n (o_req st) = Some (t, v) \/ ns_get n (o_uns st) = Some (t, v)) /\
    fw_get (t, v) (o_fw st) = Some fw /\ fw_config_payload t v fw = Ok r.
Proof.
  intros st n p r.
  destruct (respond_fw_config_spec st n p) as [[_ ->]|(k & req & uns & E & ->)]; [discriminate|].
  cbn [snd]. destruct k as [[t v]|]; [|discriminate].
  destruct (fw_get (t, v) (o_fw st)) as [fw|] eqn:G; [|discriminate].
  destruct (fw_config_payload t v fw) as [r'|e] eqn:P; cbn [bind]; [|discriminate].
  intros H. exists t, v, fw.
  split; [exact (get_fw_stores_found _ _ _ _ _ _ E)|split; [exact G|congruence]].
Qed.

(* any sequence of block requests by nodes past their config request - any
   order, any repetition, any mix of nodes - is answered one by one with the
   echo header and the requested block *)
Theorem C09_serve_blocks : forall t v fw reqs st,
  word_ok t = true -> word_ok v = true ->
  fw_get (t, v) (o_fw st) = Some fw ->
  (forall ni, In ni reqs -> active st (fst ni) = true /\ word_ok (snd ni) = true) ->
  snd (serve_all st (map (blk_request t v) reqs)) =
  map (fun ni => Ok (Some (hexlify (le16 t ++ le16 v ++ le16 (snd ni))
                           ++ hexlify (fw_block (fw_data fw) (snd ni))))) reqs.
Proof.
  intros t v fw reqs st Ht Hv G H.
  etransitivity;
    [apply (serve_all_active fst (fun ni => req_payload t v (snd ni))); intros ni Hin; apply H, Hin|].
  apply map_ext_in. intros ni Hin. apply block_answer_req; try assumption. apply H, Hin.
Qed.

(* update with an image, the node's config request, then any history: the
   config response advertises blocks and CRC of the prepared image and every
   block request of the node returns that block of the prepared image *)
Theorem C09_end_to_end : forall known st nids t v img n pc ws,
  word_ok t = true -> word_ok v = true ->
  bytes_ok img = true -> (fw_blocks (prepare_fw img) <= 65535)%Z ->
  In n known -> In n nids ->
  fw_hex_to_int pc 5 = Ok ws ->
  let fw := prepare_fw img in
  let st1 := make_update known st nids (AInt t) (AInt v) (Some img) in
  let st2 := fst (respond_fw_config st1 n pc) in
  snd (respond_fw_config st1 n pc) =
    Ok (Some (hexlify (le16 t ++ le16 v ++ le16 (fw_blocks fw) ++ le16 (fw_crc fw)))) /\
  forall (hist : list request) i, word_ok i = true ->
    snd (respond_fw (fst (serve_all st2 hist)) n (req_payload t v i)) =
      Ok (Some (hexlify (le16 t ++ le16 v ++ le16 i) ++ hexlify (fw_block (fw_data fw) i))).
Proof.
  intros known st nids t v img n pc ws Ht Hv Hb Hblk Hk Hn Hpc. cbv zeta.
  destruct (make_update_spec known st nids t v img Ht Hv) as (G & Hreq).
  destruct (respond_fw_config_scheduled _ n pc t v _ ws Hpc (Hreq n Hk Hn) G) as [C A].
  split.
  - rewrite C, (fw_config_payload_ok t v _ Ht Hv) by (exists img; auto). reflexivity.
  - intros hist i Hi.
    rewrite respond_fw_served by (apply serve_all_keeps_active; exact A).
    rewrite serve_all_keeps_fw, respond_fw_config_keeps_fw.
    apply block_answer_req; assumption.
Qed.

(* re-publishing a different image under an id that is already in use: whatever
   the state held before (old image, nodes in mid-download, any history), every
   later block answer for (t, v) - after any further requests, to any node - is
   a block of the NEW prepared image (or no answer) *)
Theorem C09_republish_serves_new : forall known st nids t v img hist n i,
  word_ok t = true -> word_ok v = true -> word_ok i = true ->
  let st1 := make_update known st nids (AInt t) (AInt v) (Some img) in
  let a := snd (respond_fw (fst (serve_all st1 hist)) n (req_payload t v i)) in
  a = Ok None \/
  a = Ok (Some (hexlify (le16 t ++ le16 v ++ le16 i)
                ++ hexlify (fw_block (fw_data (prepare_fw img)) i))).
Proof.
  intros known st nids t v img hist n i Ht Hv Hi. cbv zeta.
  destruct (make_update_spec known st nids t v img Ht Hv) as (G & _).
  destruct (block_answer_history_independent (make_update known st nids (AInt t) (AInt v) (Some img))
              hist n (req_payload t v i)) as [H|H]; [left; exact H|right].
  rewrite H. apply block_answer_req; assumption.
Qed.

(* type / version that are no 16-bit integers are refused, nothing changes (the range check
   of make_update, commit d059060 of the repository) *)
Theorem C09_make_update_rejects : forall known st nids ta va bin,
  match arg_int ta, arg_int va with
  | Some t, Some v => word_ok t && word_ok v = false
  | _, _ => True
  end ->
  make_update known st nids ta va bin = st.
Proof.
  intros known st nids ta va bin. unfold make_update.
  destruct (arg_int ta) as [t|]; [|reflexivity].
  destruct (arg_int va) as [v|]; [|reflexivity].
  intros H. destruct (word_ok t); destruct (word_ok v); try discriminate; reflexivity.
Qed.

(* the invariant under which the config response cannot raise *)
Theorem C09_invariant :
  ota_ok ota_init /\
  (forall st r, ota_ok st -> ota_ok (fst (serve st r))) /\
  (forall known st nids ta va bin, ota_ok st ->
     match bin with
     | Some img => bytes_ok img = true /\ (fw_blocks (prepare_fw img) <= 65535)%Z
     | None => True
     end -> ota_ok (make_update known st nids ta va bin)) /\
  (forall st n p e, ota_ok st -> snd (respond_fw_config st n p) <> Raise e).
Proof.
  split; [|split; [|split]].
  - repeat split; intros; discriminate.
  - intros st [n p|n p] H; cbn [serve].
    + destruct (respond_fw_config_spec st n p) as [[_ ->]|(k & req & uns & E & ->)]; [exact H|].
      destruct H as (Hfw & Hreq & Huns & Hsta).
      destruct (get_fw_stores_ok _ _ _ _ _ _ E Hreq Huns) as [H1 H2].
      exact (conj Hfw (conj H1 (conj H2 Hsta))).
    + destruct (respond_fw_spec st n p) as [[-> _]|(k & uns & sta & E & ->)]; [exact H|].
      destruct H as (Hfw & Hreq & Huns & Hsta).
      exact (conj Hfw (conj Hreq (get_fw_stores_ok _ _ _ _ _ _ E Huns Hsta))).
  - intros known st nids ta va bin Hok Hbin. unfold make_update.
    destruct (arg_int ta) as [t|]; [|assumption].
    destruct (arg_int va) as [v|]; [|assumption].
    destruct (word_ok t) eqn:Ht; [|assumption].
    destruct (word_ok v) eqn:Hv; [|assumption].
    cbn [negb orb].
    destruct Hok as (Hfw & Hstores).
    set (fwd := match bin with Some b => fw_set (t, v) (prepare_fw b) (o_fw st) | None => o_fw st end).
    assert (Hfwd : forall k f, fw_get k fwd = Some f -> fware_ok f).
    { intros k f G. unfold fwd in G. destruct bin as [img|]; [|apply (Hfw k f G)].
      rewrite fw_get_set in G. destruct (key_eqb k (t, v)); [|apply (Hfw k f G)].
      inversion G; subst f. exists img. tauto. }
    destruct (fw_get (t, v) fwd) as [f|]; [|exact (conj Hfwd Hstores)].
    split; [rewrite fold_schedule_fw; exact Hfwd|].
    exact (fold_schedule_ok known t v nids (mkOta fwd (o_req st) (o_uns st) (o_sta st)) Ht Hv Hstores).
  - intros st n p e (Hfw & Hreq & Huns & _).
    destruct (respond_fw_config_spec st n p) as [[_ ->]|(k & req & uns & E & ->)]; [discriminate|].
    cbn [snd]. destruct k as [[t v]|]; [|discriminate].
    destruct (fw_get (t, v) (o_fw st)) as [fw|] eqn:G; [|discriminate].
    destruct (get_fw_stores_found _ _ _ _ _ _ E) as [S|S];
      [destruct (Hreq n t v S) as [Ht Hv]|destruct (Huns n t v S) as [Ht Hv]];
      rewrite (fw_config_payload_ok t v fw Ht Hv (Hfw _ _ G)); discriminate.
Qed.

(* Intel-HEX: loading what our encoder wrote gives the image back *)
Theorem C09_ihex_roundtrip : forall (upper : bool) (n : nat) (img : list N),
  (1 <= n <= 255)%nat -> bytes_ok img = true ->
  (N.of_nat (List.length img) <= 4294967296)%N ->
  ihex_load (ihex_encode upper n img) = Some img.
Proof. exact ihex_roundtrip. Qed.

Example C09_example_prepare :
  let f := prepare_fw (repeat 7%N 130) in
  (fw_blocks f, List.length (fw_data f), fw_crc f =? crc16_modbus (fw_data f))%Z = (16%Z, 256%nat, true).
Proof. vm_compute. reflexivity. Qed.

Example C09_example_session :
  let st1 := make_update [1%Z] ota_init [1%Z] (AInt 1) (AStr (s2p " 2 ")) (Some [1; 2; 3]%N) in
  let '(st2, cfg) := respond_fw_config st1 1 (s2p "01000100000000000000") in
  let '(_, blk) := respond_fw st2 1 (s2p "010002000000") in
  (cfg, blk) = (Ok (Some (s2p "0100020008004929")),
                Ok (Some (s2p "010002000000010203ffffffffffffffffffffffffff"))).
Proof. vm_compute. reflexivity. Qed.

(* image A, one block fetched, image B under the same id, new config, block 0 again: B's block and B's CRC *)
Example C09_example_republish :
  let cfgp := s2p "01000100000000000000" in
  let st1 := make_update [1%Z] ota_init [1%Z] (AInt 1) (AInt 2) (Some [1; 2; 3]%N) in
  let st2 := fst (respond_fw_config st1 1 cfgp) in
  let '(st3, a0) := respond_fw st2 1 (req_payload 1 2 0) in
  let st4 := make_update [1%Z] st3 [1%Z] (AInt 1) (AInt 2) (Some [9; 8; 7; 6]%N) in
  let '(st5, cfg) := respond_fw_config st4 1 cfgp in
  let '(_, b0) := respond_fw st5 1 (req_payload 1 2 0) in
  (a0, b0, negb (pstr_eqb (match cfg with Ok (Some c) => c | _ => [] end) (s2p "0100020008004929")))
  = (Ok (Some (s2p "010002000000010203ffffffffffffffffffffffffff")),
     Ok (Some (s2p "01000200000009080706ffffffffffffffffffffffff")), true).
Proof. vm_compute. reflexivity. Qed.

Example C09_example_errors :
  (fw_hex_to_int (s2p "0g") 1, fw_hex_to_int [233%N; 48%N] 1, fw_hex_to_int (s2p "0100") 2,
   fw_int_to_hex [65536%Z], fw_hex_to_int (s2p "FfFe") 1)
  = (Raise BinasciiError, Raise ValueError, Raise StructError, Raise StructError, Ok [65279%Z]).
Proof. vm_compute. reflexivity. Qed.

Example C09_example_ihex :
  ihex_load (s2p ":020000040001F9" ++ [10%N] ++ s2p ":03000200AABBCCCA" ++ [13%N]
             ++ s2p ":0100000011EE" ++ [13%N; 10%N] ++ s2p ":00000001FF")
  = Some [17; 255; 170; 187; 204]%N.
Proof. vm_compute. reflexivity. Qed.

Print Assumptions C09_constants.
Print Assumptions C09_prepare_shape.
Print Assumptions C09_prepare_bytes.
Print Assumptions C09_blocks_concat.
Print Assumptions C09_prepared_blocks.
Print Assumptions C09_block_length.
Print Assumptions C09_block_beyond.
Print Assumptions C09_reassemble_any_order.
Print Assumptions C09_response_payload.
Print Assumptions C09_response_echo.
Print Assumptions C09_config_payload.
Print Assumptions C09_config_payload_overflow.
Print Assumptions C09_config_echo.
Print Assumptions C09_unhexlify_hexlify.
Print Assumptions C09_hexlify_unhexlify.
Print Assumptions C09_unpack_pack.
Print Assumptions C09_pack_unpack.
Print Assumptions C09_pack_total.
Print Assumptions C09_fw_hex_int_roundtrip.
Print Assumptions C09_fw_hex_to_int_errors.
Print Assumptions C09_crc_range.
Print Assumptions C09_answers_history_independent.
Print Assumptions C09_requests_keep_firmware.
Print Assumptions C09_block_request_never_raises.
Print Assumptions C09_config_advertises.
Print Assumptions C09_serve_blocks.
Print Assumptions C09_end_to_end.
Print Assumptions C09_republish_serves_new.
Print Assumptions C09_make_update_rejects.
Print Assumptions C09_invariant.
Print Assumptions C09_ihex_roundtrip.
