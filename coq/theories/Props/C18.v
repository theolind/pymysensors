(* C18 - documented configuration is accepted and honoured. *)
From Coq Require Import List NArith ZArith Bool String.
From PMS Require Import Base.PyStr Base.Exn Model.ConfigSyntax Model.ConfigVersion Model.Config
  Model.ConfigCheck Spec.ConfigSpec Gen.Signatures
  Proofs.ConfigOrder Proofs.ConfigProofs Proofs.ConfigFinite.
From PMS Require Import Proofs.VersionProofs Proofs.VersionConfigLink.
Import ListNotations.
Open Scope N_scope.

(* For each of the six gateway classes, for the required arguments passed
   positionally or by keyword, and for every vector of choices
   (absent / first / second representative value) over the class's documented
   keyword options - 3^7 vectors per class and style - the constructor chain,
   interpreted over the generated signatures and __init__ summaries, returns
   normally and every selected option is visible where it acts. *)
Theorem C18_documented_options_accepted :
  forall (orc : avop -> pstr -> pstr -> option bool) (cont : pstr -> bool)
         (c : gwclass) (by_keyword : bool) (ch : list choice),
    List.length ch = List.length (documented c) ->
    exists h, construct_case orc cont c by_keyword ch = Ok h
      /\ (forall o v, In (o, v) (selected c ch) -> honoured (look h) c (selected c ch) o v)
      /\ required_visible (look h) c.
Proof. exact documented_options_accepted. Qed.

(* "numeric comparison": sections compared left to right, a missing section
   counts as zero.  It is a total preorder; "2", "2.0", "2.0.0" are equal. *)
Theorem C18_numeric_order :
  (forall a, cmpv a a = Eq)
  /\ (forall a b, cmpv b a = CompOpp (cmpv a b))
  /\ (forall a b, le_num a b \/ le_num b a)
  /\ (forall a b c, le_num a b -> le_num b c -> le_num a c)
  /\ (forall a b c, cmpv a b = Eq -> cmpv a c = cmpv b c)
  /\ cmpv [2] [2; 0] = Eq /\ cmpv [2; 0] [2; 0; 0] = Eq.
Proof.
  exact (conj cmpv_refl (conj cmpv_antisym (conj cmpv_total (conj le_num_trans (conj cmpv_eq_compat
         (conj (proj1 cmpv_trailing_zero) (proj1 (proj2 cmpv_trailing_zero)))))))).
Qed.

(* awesomeversion's < and > on dotted numeric strings (as modelled from its
   source: identical strings are neither, otherwise compare_base_sections) are
   exactly the numeric comparison of the sections *)
Theorem C18_awesomeversion_numeric :
  forall a b : pstr,
    av_lt_num a b = match cmpv (sections a) (sections b) with Lt => true | _ => false end
    /\ av_gt_num a b = match cmpv (sections a) (sections b) with Gt => true | _ => false end.
Proof. exact (fun a b => conj (av_lt_num_spec a b) (av_gt_num_spec a b)). Qed.

(* the floor function of the specification is the property's rule: the highest
   supported version not above v, the 1.4 constants when there is none *)
Theorem C18_floor_rule :
  forall v : list N,
    (exists c, is_floor v c /\ In (c, floor_module v) supported)
    \/ ((forall c, In c (map fst supported) -> ~ le_num c v) /\ floor_module v = fallback_module).
Proof. exact floor_module_spec. Qed.

(* every dotted numeric string - any number of sections, any naturals, leading
   zeros allowed - selects the constants of its floor; safe_is_version keeps it
   iff it is numerically >= 1.4; the ">= 2.0" test of is_sensor agrees with a
   2.x table being selected; a node presenting v gets the same table *)
Theorem C18_version_floor :
  forall (orc : avop -> pstr -> pstr -> option bool) (cont : pstr -> bool) (v : pstr),
    dotted_numeric v = true ->
    get_const orc v = Ok (floor_module (sections v))
    /\ safe_is_version orc cont (VStr v) = Ok (if le_numb [1; 4] (sections v) then v else s2p "1.4")
    /\ gateway_const orc cont (VStr v) = Ok (floor_module (sections v))
    /\ (do s <- safe_is_version orc cont (VStr v); wants_presentation orc s) = Ok (le_numb [2; 0] (sections v))
    /\ le_numb [2; 0] (sections v) = is_2x (floor_module (sections v))
    /\ node_const orc cont (VStr v) = Ok (floor_module (sections v)).
Proof.
  exact (fun orc cont v H =>
    conj (get_const_floor orc v H) (conj (safe_is_version_num orc cont v H)
    (conj (gateway_const_floor orc cont v H) (conj (wants_presentation_num orc cont v H)
    (conj (ge20_iff_2x_table (sections v))
          (eq_trans (node_same_rule orc cont (VStr v)) (gateway_const_floor orc cont v H))))))).
Qed.

(* the core machine (Model/Oracles.v) computes its version verdicts on dotted numeric strings
   with the hand-written functions of Base/Version.v; they agree with this model, which is
   interpreted over the tests / key order / module table GENERATED from the source: is_version
   accepts v iff ver_ge14 v, safe_is_version returns safe_num v, the gateway and a node
   presenting v get the module with index const_index v; the hand-written key list is the
   generated one; and the independent numeric order num_ge is the order le_numb of this spec *)
Theorem C18_core_machine_version_agrees :
  (forall (orc : avop -> pstr -> pstr -> option bool) (cont : pstr -> bool) (v : pstr),
     dotted_numeric v = true ->
     is_version orc cont (VStr v) = (if ver_ge14 v then Ok v else Raise VolInvalid)
     /\ safe_is_version orc cont (VStr v) = Ok (safe_num v)
     /\ gateway_const orc cont (VStr v) = Ok (nth (const_index v) const_modules [])
     /\ node_const orc cont (VStr v) = Ok (nth (const_index v) const_modules []))
  /\ (map fst const_keys_desc = iter_keys
      /\ map (fun ki => Some (nth (snd ki) const_modules [])) const_keys_desc
         = map (fun k => assoc k const_versions) iter_keys
      /\ get_const_default = nth 0 const_modules [] /\ safe_fallback = v_floor)
  /\ (forall a b, num_ge a b = le_numb b a).
Proof.
  exact (conj (fun orc cont v H =>
                 conj (is_version_core orc cont v H) (conj (safe_is_version_core orc cont v H)
                      (gateway_const_core orc cont v H)))
              (conj const_keys_match_generated num_ge_le_numb)).
Qed.

(* whatever a node presents (any value, any verdict of the oracle) is selected
   by the same function as the gateway's own protocol_version *)
Theorem C18_node_same_rule :
  forall (orc : avop -> pstr -> pstr -> option bool) (cont : pstr -> bool) (v : val),
    node_const orc cont v = gateway_const orc cont v.
Proof. exact node_same_rule. Qed.

(* a value whose str() is not dotted numeric: the verdict of is_version's
   comparison is the oracle's (the library's) - for the current code
   AwesomeVersion("1.4") > AwesomeVersion(str(v)).  If it is one of
   awesomeversion's container words ("latest", "dev", "stable", "beta": cont),
   or the library cannot compare it (exception), or finds it older: version
   "1.4" and the 1.4 constants, for the gateway and for a node.  Anything else
   the library accepts is kept as written. *)
Theorem C18_nonnumeric_fallback :
  forall (orc : avop -> pstr -> pstr -> option bool) (cont : pstr -> bool) (v : val),
    dotted_numeric (py_str v) = false ->
    eval_vtest orc is_version_test (py_str v) [] =
      option_map (xorb (vt_neg is_version_test))
        (orc (vt_op is_version_test) (side_val (vt_l is_version_test) (py_str v) [])
             (side_val (vt_r is_version_test) (py_str v) []))
    /\ ((cont (py_str v) = true
         \/ eval_vtest orc is_version_test (py_str v) [] = None
         \/ eval_vtest orc is_version_test (py_str v) [] = Some true) ->
        safe_is_version orc cont v = Ok (s2p "1.4")
        /\ gateway_const orc cont v = Ok fallback_module /\ node_const orc cont v = Ok fallback_module)
    /\ (cont (py_str v) = false -> eval_vtest orc is_version_test (py_str v) [] = Some false ->
        safe_is_version orc cont v = Ok (py_str v)).
Proof.
  exact (fun orc cont v H =>
    conj (is_version_test_oracle orc (py_str v) H)
         (conj (nonnumeric_fallback orc cont v H)
               (fun Hc => nonnumeric_accepted orc cont v
                            (eq_trans (f_equal (andb (negb (dotted_numeric (py_str v)))) Hc)
                                      (andb_false_r _))))).
Qed.

(* HISTORY (finding version/container-word, repaired in the repo by b5ee08d).
   Without the container test (is_version_with false = the code before the fix)
   and with the oracle that answers like awesomeversion on its container word
   "dev", the digit-free string "dev" was kept and get_const gave the 2.2
   constants; with the test (the current code) the same inputs give "1.4". *)
Theorem C18_nonnumeric_fallback_unfixed_refuted :
  exists (orc : avop -> pstr -> pstr -> option bool) (cont : pstr -> bool) (v : val),
    dotted_numeric (py_str v) = false
    /\ forallb (fun c => negb (is_digit c)) (py_str v) = true
    /\ cont (py_str v) = true
    /\ safe_is_version_with orc cont false v = Ok (py_str v)
    /\ get_const orc (py_str v) = Ok (s2p "mysensors.const_22")
    /\ safe_is_version orc cont v = Ok (s2p "1.4").
Proof. exact nonnumeric_fallback_unfixed_refuted. Qed.

(* event_callback and persistence act through Gateway.alert (facts generated from
   its AST): the callback is invoked iff one is configured, and with persistence
   on every alert marks the network as changed - whether or not a callback is
   configured - so the next (scheduled or final) save writes it. *)
Theorem C18_alert_effect :
  forall has_callback dirty : bool,
    alert_model has_callback true dirty = (has_callback, true)
    /\ alert_model has_callback false dirty = (has_callback, dirty).
Proof. exact alert_effect. Qed.

(* the generated tables are the ones the specification was written for, and the
   constructor examples of README.md / mqtt.py / main.py / async_main.py use
   documented keyword options only *)
Theorem C18_generated_matches_spec :
  gen_supported = supported
  /\ get_const_default = fallback_module
  /\ sections safe_fallback = fallback_version
  /\ sections sensor_default_version = fallback_version
  /\ examples_documented = true.
Proof.
  exact (conj gen_supported_is_spec (conj (proj1 defaults_are_spec) (conj (proj1 (proj2 defaults_are_spec))
        (conj (proj2 (proj2 defaults_are_spec)) examples_use_documented_options)))).
Qed.

(* ---- non-vacuity *)
Example C18_ex_floor :
  floor_module [2; 0; 5] = s2p "mysensors.const_20" /\ floor_module [2; 3] = s2p "mysensors.const_22"
  /\ floor_module [2] = s2p "mysensors.const_20" /\ floor_module [1; 3; 9] = s2p "mysensors.const_14"
  /\ floor_module [1; 10] = s2p "mysensors.const_15" /\ floor_module [3; 0] = s2p "mysensors.const_22".
Proof. vm_compute. repeat split. Qed.

Example C18_ex_strings :
  dotted_numeric (s2p "2.0.0") = true /\ sections (s2p "02.00") = [2; 0]
  /\ get_const (fun _ _ _ => None) (s2p "2.0.0") = Ok (s2p "mysensors.const_20")
  /\ safe_is_version (fun _ _ _ => None) (fun _ => false) (VStr (s2p "1.3.9")) = Ok (s2p "1.4")
  /\ safe_is_version (fun _ _ _ => None) (fun _ => false) (VInt 2) = Ok (s2p "2")
  /\ dotted_numeric (py_str VNone) = false
  /\ safe_is_version (fun _ _ _ => None) (fun _ => false) VNone = Ok (s2p "1.4").
Proof. vm_compute. repeat split. Qed.

Example C18_ex_fallback_premise :
  eval_vtest (fun _ _ _ => None) is_version_test (py_str VNone) [] = None
  /\ eval_vtest (fun _ _ _ => Some true) is_version_test (s2p "abc") [] = Some true.
Proof. vm_compute. split; reflexivity. Qed.

Example C18_ex_container_word :
  safe_is_version (fun _ _ _ => Some false) (fun s => pstr_eqb s (s2p "latest")) (VStr (s2p "latest")) = Ok (s2p "1.4")
  /\ safe_is_version (fun _ _ _ => Some false) (fun _ => false) (VStr (s2p "v2.0")) = Ok (s2p "v2.0").
Proof. vm_compute. split; reflexivity. Qed.

Example C18_ex_readme_call :
  exists h, construct_case (fun _ _ _ => None) (fun _ => false) SerialGw false [RepA; RepA; RepA; RepA; RepA; RepA; RepA] = Ok h
    /\ look h (p ["tasks"; "transport"; "timeout"]%string) = Some (VFloat (s2p "2.5"))
    /\ look h (p ["tasks"; "persistence"; "persistence_file"]%string) = Some (VStr (s2p "a.json"))
    /\ look h (p ["const"]%string) = Some (VObj (s2p "mysensors.const_22")).
Proof. exact readme_serial_call. Qed.

Example C18_ex_undocumented_refused :
  construct (fun _ _ _ => None) (fun _ => false) classes (s2p "MQTTGateway") [VObj (s2p "pub"); VObj (s2p "sub")]
    [(s2p "timeout", VFloat (s2p "1.0"))] = Raise TypeError.
Proof. exact undocumented_keyword_refused. Qed.

Print Assumptions C18_documented_options_accepted.
Print Assumptions C18_numeric_order.
Print Assumptions C18_awesomeversion_numeric.
Print Assumptions C18_floor_rule.
Print Assumptions C18_version_floor.
Print Assumptions C18_node_same_rule.
Print Assumptions C18_nonnumeric_fallback.
Print Assumptions C18_nonnumeric_fallback_unfixed_refuted.
Print Assumptions C18_alert_effect.
Print Assumptions C18_generated_matches_spec.
Print Assumptions C18_core_machine_version_agrees.
