(* C13 - start-up survives damaged persistence files.
   Model: Model/FsSave.v (load_sensors / safe_load interpret the GENERATED Gen/SaveTrace.v: load_prog,
   safe_load_prog with the two caught tuples; class table from the live MROs).  damage_of f is MEASURED
   on every run (Gen/DamageClasses.v): the classes the real decoder raised on every truncation and the
   zero-fill of real files.  That no OTHER class can occur on damaged bytes is not proved (json / pickle
   are C code): it is the premise class_ok. *)
From Coq Require Import List Bool Arith NArith String.
From PMS Require Import Base.PyStr Spec.AbstractFs Model.FsSave Model.FsCode Gen.SaveTrace Gen.DamageClasses
     Proofs.FsProofs.
Import ListNotations.
Local Open Scope nat_scope.

(* For both formats and every main / backup / temp file that is missing, good, or damaged such that the
   decoder raises one of the measured classes: safe_load_sensors returns normally and the calls
   self._sensors.update(...) it made are exactly [main's state] if main is good, else [the backup's]
   if that is good, else none - never two (a merge).  (next only witnesses that St is inhabited.) *)
Theorem C13_safe_load_total :
  forall (f : fmt) (St : Type) (next : St) (m b t : fclass St) (ep ee : cls),
    class_ok (damage_of f) m -> class_ok (damage_of f) b -> class_ok (damage_of f) t ->
    In ep (damage_of f) -> In ee (damage_of f) ->
    snd (loadf (code f) ep ee (mk_disk m b t)) = LOk (expected_load m b).
Proof. exact safe_load_total. Qed.

(* ... and the directory it leaves lets the next save (any number of writes) run to completion, after
   which a start-up loads exactly what was saved *)
Theorem C13_after_load_consistent :
  forall (f : fmt) (St : Type) (next : St) (m b t : fclass St) (ep ee : cls) (w : nat),
    class_ok (damage_of f) m -> class_ok (damage_of f) b -> class_ok (damage_of f) t ->
    In ep (damage_of f) -> In ee (damage_of f) -> 1 <= w ->
    again_spec next (save_again (code f) ep ee w next (fresh (fst (loadf (code f) ep ee (mk_disk m b t))))).
Proof. exact after_load_consistent. Qed.

(* side condition on the generated data: every measured class is caught by both handlers, and no
   damaged file decoded without an exception *)
Theorem C13_damage_classes_caught :
  forall f e, In e (damage_of f) ->
    catches mro_tab (sl_h1 safe_load_prog) e = true /\ catches mro_tab (sl_h2 safe_load_prog) e = true.
Proof. intros f e H. split; [apply caught_h1 | apply caught_h2]; exact (damage_caught f e H). Qed.

Theorem C13_damage_detected : damage_undetected_json = 0%N /\ damage_undetected_pickle = 0%N.
Proof. split; reflexivity. Qed.

(* the premise is needed: a class outside the caught tuples escapes start-up *)
Example C13_uncaught_class_escapes :
  snd (loadf (code Pickle) e_json e_json (mk_disk (FBad (s2p "KeyError"%string)) (FGood TSb) FMissing))
  = LRaise (s2p "KeyError"%string).
Proof. vm_compute. reflexivity. Qed.

(* non-vacuity: damaged main, intact backup -> the backup's state *)
Example C13_example_backup :
  snd (loadf (code Pickle) e_json e_json
         (mk_disk (FBad (s2p "_pickle.UnpicklingError"%string)) (FGood TSb) FMissing)) = LOk [TSb].
Proof. vm_compute. reflexivity. Qed.

Print Assumptions C13_safe_load_total.
Print Assumptions C13_after_load_consistent.
Print Assumptions C13_damage_classes_caught.
Print Assumptions C13_damage_detected.
