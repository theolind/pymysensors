(* C20 - connections are supervised and the callbacks are exact.
   Vocabulary: Spec/SupSpec.v; models: Model/Supervise.v (four event automata),
   Model/Watchdog.v (check_connection on arbitrary schedules). *)
From Coq Require Import List ZArith Bool Lia.
From PMS Require Import Gen.SupConsts Model.Watchdog Model.Supervise Spec.SupSpec
  Proofs.SuperviseProofs Proofs.WatchdogProofs.
Import ListNotations.
Open Scope Z_scope.

Theorem C20_reachable_inv : forall fl p es, Inv fl (final fl p init es).
Proof. intros. apply final_inv, inv_init. Qed.

(* one step: on_conn_made fires exactly when a link comes up, on_conn_lost exactly when one
   goes down, with the exc argument of SupSpec.loss_exc (None for disconnect()/stop());
   no other callback *)
Theorem C20_callbacks_step : forall fl p s e, 0 <= p_rt p -> Inv fl s ->
  cbs (snd (step fl p s e)) = cb_expected (conn s) (conn (fst (step fl p s e))) (loss_exc fl e).
Proof. exact callbacks_step. Qed.

(* made_once / lost_once: as many callbacks as links established / lost *)
Theorem C20_made_once : forall fl p es, 0 <= p_rt p ->
  length (filter is_made (outputs fl p init es)) = links_made fl p init es.
Proof. intros. apply made_once; [assumption|apply inv_init]. Qed.

Theorem C20_lost_once : forall fl p es, 0 <= p_rt p ->
  length (filter is_lost (outputs fl p init es)) = links_lost fl p init es.
Proof. intros. apply lost_once; [assumption|apply inv_init]. Qed.

Theorem C20_callbacks_alternate : forall fl p es, 0 <= p_rt p ->
  alternate false (cbs (outputs fl p init es)) = true.
Proof. intros. apply (callbacks_alternate fl p es init); [assumption|apply inv_init]. Qed.

Theorem C20_lost_exc : forall fl p s e x, 0 <= p_rt p -> Inv fl s ->
  In (LostCb x) (snd (step fl p s e)) -> x = loss_exc fl e.
Proof.
  intros fl p s e x Hrt H Hin. apply (lost_expected (conn s) (conn (fst (step fl p s e)))).
  rewrite <- (callbacks_step fl p s e Hrt H). apply filter_In. split; [exact Hin|reflexivity].
Qed.

(* reconnect_follows_loss.  Full statement: every loss that is not caused by
   disconnect()/stop() leaves a dial pending, attempted at that very instant.
   It holds for the threaded flavours ... *)
Theorem C20_reconnect_follows_loss_sync : forall fl p s e, is_async fl = false -> Inv fl s ->
  conn s = true -> conn (fst (step fl p s e)) = false -> user_event e = false ->
  ct (fst (step fl p s e)) = CDialing /\ In (Attempt (now (fst (step fl p s e)))) (snd (step fl p s e)).
Proof. intros. apply reconnect_follows_loss; try assumption. intro. congruence. Qed.

(* ... and for all four flavours when, on asyncio, the loss is not an orderly close by the
   peer (the premise is about asyncio only) *)
Theorem C20_reconnect_follows_loss_async_partial : forall fl p s e, Inv fl s ->
  conn s = true -> conn (fst (step fl p s e)) = false -> user_event e = false ->
  (is_async fl = true -> e <> PeerClose) ->
  ct (fst (step fl p s e)) = CDialing /\ In (Attempt (now (fst (step fl p s e)))) (snd (step fl p s e)).
Proof. exact reconnect_follows_loss. Qed.

(* D13: asyncio flavours, connect then orderly close by the peer: on_conn_lost(None) is the
   only output, and whatever happens afterwards nothing is ever output again - no
   attempt, no callback (for TCP the watchdog timer is cancelled too) *)
Theorem C20_reconnect_follows_loss_async_refuted : forall fl p es, is_async fl = true -> 0 <= p_rt p ->
  let s1 := fst (step fl p init AttemptOk) in
  conn s1 = true /\ conn (fst (step fl p s1 PeerClose)) = false /\
  snd (step fl p s1 PeerClose) = [LostCb false] /\
  outputs fl p (fst (step fl p s1 PeerClose)) es = [].
Proof.
  intros fl p es Hfl Hrt.
  destruct (g_peer_close_orphan Z.add Z.max Z.leb wd_check fl p Hfl (wd_fresh _ Hrt 0)) as (H1 & H2 & H3 & H4).
  repeat split; [exact H1|exact H2|exact H4|].
  apply idle_run; [repeat apply step_inv; apply inv_init|exact H2|exact H3].
Qed.

(* retry: a failed dial sleeps reconnect_timeout ... *)
Theorem C20_retry_after_fail : forall fl p s, ct s = CDialing ->
  step fl p s AttemptFail = (set_ct s (CSleeping (now s + p_rt p)), [Sleep (p_rt p)]).
Proof. intros. apply g_fail_sleeps. assumption. Qed.

(* ... and, unless the user intervenes, the next attempt is made exactly when the sleep
   ends (and not before), whatever else happens meanwhile *)
Theorem C20_retry_timing : forall fl p u es s, Inv fl s -> ct s = CSleeping u -> now s < u ->
  guard_ok fl s -> no_user es = true ->
  if u <=? now s + total_ticks es
  then first_attempt (outputs fl p s es) = Some u
  else outputs fl p s es = [] /\ ct (final fl p s es) = CSleeping u
       /\ now (final fl p s es) = now s + total_ticks es.
Proof.
  intros fl p u. induction es as [|e es IH]; intros s H Hc Hn Hg Hu.
  - cbn [total_ticks]. rewrite (proj2 (Z.leb_gt _ _)) by lia. repeat split; [exact Hc|cbn; lia].
  - cbn [no_user forallb] in Hu. apply andb_true_iff in Hu as [He Hu]. apply negb_true_iff in He.
    pose proof (total_ticks_nonneg es) as Hnn. rewrite outputs_cons, final_cons.
    destruct (sleeping_notices fl p s e u H Hc Hg He) as [(dt & -> & Hd)|[-> ->]]; [|apply IH; assumption].
    rewrite (tick_sleeping fl p s u dt Hc Hg), (proj2 (Z.leb_gt dt 0)) by lia.
    cbn [total_ticks]. rewrite Z.max_r by lia.
    destruct (Z.leb_spec u (now s + dt)) as [Hr|Hr]; cbn [fst snd app].
    + rewrite (proj2 (Z.leb_le _ _)), Z.max_l by lia. reflexivity.
    + replace (now s + (dt + total_ticks es)) with (now s + dt + total_ticks es) by lia.
      apply (IH (set_now s (now s + dt))); [exact H|exact Hc|cbn; lia|exact Hg|exact Hu].
Qed.

(* quiet_after_stop.  Threaded flavours: after stop() nothing but the dial loop's last
   sleep: no callback, attempt, write, close *)
Theorem C20_quiet_after_stop_sync : forall fl p s es, is_async fl = false -> Inv fl s ->
  quiet (outputs fl p (fst (step fl p s Stop)) es) = true.
Proof. intros. apply quiet_after_stop. assumption. Qed.

(* asyncio flavours, the same statement at the same strength: any state satisfying the
   invariant - in particular stop() while `await gateway.start()` is still in its first
   connect loop, which is not transport.connect_task and cannot be cancelled by stop():
   since the D21 repair that loop tests transport.protocol like the threaded ones, so the
   dial in flight may fail and sleep once more, and then the loop ends *)
Theorem C20_quiet_after_stop_async : forall fl p s es, is_async fl = true -> Inv fl s ->
  quiet (outputs fl p (fst (step fl p s Stop)) es) = true.
Proof. intros. apply quiet_after_stop. assumption. Qed.

(* all four flavours, exact form: whatever follows stop(), the outputs are nothing at all or
   the single sleep of the dial that was in flight when stop() was called *)
Theorem C20_after_stop_at_most_one_sleep : forall fl p s es, Inv fl s ->
  outputs fl p (fst (step fl p s Stop)) es = [] \/
  outputs fl p (fst (step fl p s Stop)) es = [Sleep (p_rt p)].
Proof.
  intros fl p s es H.
  destruct (stopped_run fl p es _ (step_inv fl p s Stop H)) as [E|[_ E]];
    [exact (proj1 (g_stop Z.add Z.max Z.leb wd_check fl p s H))| |]; auto.
Qed.

(* asyncio, once a first link has been established (any later dial loop is
   transport.connect_task, which stop() cancels): not even that sleep *)
Theorem C20_no_output_after_stop_async_connected : forall fl p es0 es1 es2, is_async fl = true ->
  conn (final fl p init es0) = true ->
  outputs fl p (fst (step fl p (final fl p init (es0 ++ es1)) Stop)) es2 = [].
Proof.
  intros fl p es0 es1 es2 Hfl Hc.
  pose proof (C20_reachable_inv fl p (es0 ++ es1)) as H.
  assert (Hs : stoppable (final fl p init (es0 ++ es1))).
  { rewrite final_app. apply stoppable_run; [apply C20_reachable_inv|exact Hfl|].
    left. apply (C20_reachable_inv fl p es0), Hc. }
  destruct (proj2 (g_stop Z.add Z.max Z.leb wd_check fl p _ H) Hfl Hs) as [G1 G2].
  apply idle_run; [apply step_inv, H|exact G1|exact G2].
Qed.

(* HISTORY (finding D21, repaired in the repo).  With the header the asyncio connect loops
   had before the repair (`while True:`, step_unfixed = the same transcription with the
   loop-test flags false) stop() during the first connect loop did not end it: the pending
   dial fails, and reconnect_timeout later the loop dials again.  On the current code the
   same history gives the one sleep and an ended loop. *)
Theorem C20_quiet_after_stop_async_unfixed_refuted : forall fl p, is_async fl = true -> 0 < p_rt p ->
  outputs_unfixed fl p (fst (step_unfixed fl p init Stop)) [AttemptFail; Tick (p_rt p)]
  = [Sleep (p_rt p); Attempt (p_rt p)].
Proof.
  intros fl p Hfl Hrt.
  destruct (g_stop_initial_dial Z.add Z.max Z.leb wd_check fl p Hfl) as [G _];
    [apply Z.leb_gt; lia|apply Z.leb_refl|].
  rewrite Z.max_l in G by lia. exact G.
Qed.

Theorem C20_stop_ends_first_connect_loop : forall fl p, is_async fl = true -> 0 < p_rt p ->
  outputs fl p (fst (step fl p init Stop)) [AttemptFail; Tick (p_rt p)] = [Sleep (p_rt p)]
  /\ ct (final fl p (fst (step fl p init Stop)) [AttemptFail; Tick (p_rt p)]) = CIdle.
Proof.
  intros fl p Hfl Hrt. apply (g_stop_initial_dial Z.add Z.max Z.leb wd_check fl p Hfl);
    [apply Z.leb_gt; lia|apply Z.leb_refl].
Qed.

(* the watchdog inside the automata is Watchdog.wd_check; a drop closes, reports and
   re-dials at the same instant *)
Theorem C20_watchdog_sync_tick : forall p s dt, Inv SyncTcp s -> conn s = true -> 0 < dt ->
  let t := now s + dt in
  match wd_check (p_rt p) (check s) (disc s) t with
  | WdDrop => conn (fst (step SyncTcp p s (Tick dt))) = false
              /\ ct (fst (step SyncTcp p s (Tick dt))) = CDialing
              /\ snd (step SyncTcp p s (Tick dt)) = [Close; LostCb true; Attempt t]
  | WdProbe => conn (fst (step SyncTcp p s (Tick dt))) = true
              /\ snd (step SyncTcp p s (Tick dt)) = [Write]
  | WdIdle => conn (fst (step SyncTcp p s (Tick dt))) = true
              /\ snd (step SyncTcp p s (Tick dt)) = []
  end.
Proof.
  intros p s dt H Hc Hdt. destruct H as (H1 & H2 & _). destruct (H1 Hc) as [Htp Hct].
  assert (Htm : timer s = None).
  { destruct (timer s) eqn:E; [|reflexivity]. destruct (H2 _ eq_refl); discriminate. }
  destruct s as [n tp_ cn c ca ch di tm ef sp]. cbn in Hc, Htp, Hct, Htm. subst.
  cbv zeta. unfold step, gstep, tick. cbn [ct timer conn now].
  replace (dt <=? 0) with false by (symmetry; apply Z.leb_gt; lia).
  unfold reader_iter. cbn [now check disc set_now negb].
  destruct (wd_check (p_rt p) ch di (n + dt)); cbn; repeat split.
Qed.

Theorem C20_watchdog_async_timer : forall p s w dt, Inv AsyncTcp s -> timer s = Some w -> 0 < dt ->
  now s <= w -> w <= now s + dt ->
  match wd_check (p_rt p) (check s) (disc s) w with
  | WdDrop => conn (fst (step AsyncTcp p s (Tick dt))) = false
              /\ ct (fst (step AsyncTcp p s (Tick dt))) = CDialing
              /\ snd (step AsyncTcp p s (Tick dt)) = [Close; LostCb false; Attempt w]
  | WdProbe => conn (fst (step AsyncTcp p s (Tick dt))) = true
              /\ snd (step AsyncTcp p s (Tick dt)) = [Write]
              /\ timer (fst (step AsyncTcp p s (Tick dt))) = Some (w + p_rt p + p_slack p)
  | WdIdle => conn (fst (step AsyncTcp p s (Tick dt))) = true
              /\ snd (step AsyncTcp p s (Tick dt)) = []
              /\ timer (fst (step AsyncTcp p s (Tick dt))) = Some (w + p_rt p + p_slack p)
  end.
Proof.
  intros p s w dt H Htm Hdt Hn Hw. destruct H as (H1 & H2 & _). destruct (H2 _ Htm) as [Hc _].
  destruct (H1 Hc) as [Htp Hct].
  destruct s as [n tp_ cn c ca ch di tm ef sp]. cbn in Hc, Htp, Hct, Htm, Hn, Hw. subst.
  unfold step, gstep, tick. cbn [ct timer conn now].
  replace (dt <=? 0) with false by (symmetry; apply Z.leb_gt; lia).
  replace (w <=? n + dt) with true by (symmetry; apply Z.leb_le; lia).
  rewrite Z.max_l by lia. unfold atcp_check. cbn [now check disc tp conn set_now set_timer].
  destruct (wd_check (p_rt p) ch di w); cbn; repeat split.
Qed.

(* watchdog_timely_safe: polls at most delta apart, every probe's answer processed within
   reconnect_timeout - delta of the probe: never dropped (any schedule, any length) *)
Theorem C20_watchdog_timely_safe : forall rt delta c es, 0 <= delta <= rt ->
  timely rt (rt - delta) delta (wd_init c) c c es = true -> dropped rt c es = false.
Proof.
  intros rt delta c es Hd. apply (timely_safe_gen rt (rt - delta) delta Hd (Z.le_refl _) es (wd_init c) c c).
  unfold timely_inv. cbn. lia.
Qed.

(* D14: without the margin the statement is false: polls 20 apart, rt = 100, first answer at
   once, second answer exactly rt after its probe: dropped at the poll of that instant *)
Theorem C20_watchdog_boundary_refuted : exists rt delta c es,
  0 < delta <= rt /\ timely rt rt delta (wd_init c) c c es = true /\ dropped rt c es = true.
Proof.
  exists 100, 20, 0,
    (map WPoll [20; 40; 60; 80; 100; 120] ++ [WAnswer 120]
     ++ map WPoll [140; 160; 180; 200; 220; 240; 260; 280; 300; 320; 340] ++ [WAnswer 340]).
  split; [lia|]. split; vm_compute; reflexivity.
Qed.

(* watchdog_silent_dropped: last answer at T = w_disc w, then only polls, at most delta
   apart: the first drop falls in (T + 2 rt, T + 2 rt + delta], and there is none while the
   polls stay within T + 2 rt *)
Theorem C20_watchdog_silent_dropped : forall rt delta ps w last, dense delta last ps = true ->
  last <= w_disc w + 2 * rt ->
  match first_drop rt w ps with
  | Some t => w_disc w + 2 * rt < t <= w_disc w + 2 * rt + delta
  | None => forallb (fun t => t <=? w_disc w + 2 * rt) ps = true
  end.
Proof. exact silent_dropped. Qed.

(* the asyncio chain call_later(rt + slack), 0 < slack < rt: answers that arrive before the
   next firing (in particular within rt) are always in time - no margin needed *)
Theorem C20_watchdog_async_timely_safe : forall rt slack c es, 0 < slack < rt ->
  periodic (rt + slack) c c es = true -> answered_each rt (wd_init c) false es = true ->
  dropped rt c es = false.
Proof.
  intros rt slack c es Hs. apply (async_safe_gen rt slack Hs es (wd_init c) c c false); cbn; lia.
Qed.

(* its polls are rt + slack apart, so silence is detected in (T + 2 rt, T + 3 rt + slack] *)
Theorem C20_watchdog_async_silent_dropped : forall rt slack k w last, 0 <= rt + slack ->
  last <= w_disc w + 2 * rt ->
  match first_drop rt w (chain (rt + slack) last k) with
  | Some t => w_disc w + 2 * rt < t <= w_disc w + 2 * rt + (rt + slack)
  | None => forallb (fun t => t <=? w_disc w + 2 * rt) (chain (rt + slack) last k) = true
  end.
Proof. intros. apply silent_dropped with (last := last); [apply dense_chain|]; assumption. Qed.

(* a run with two links, a read error, a failed dial, a retry and a deliberate disconnect *)
Example C20_example_run :
  outputs AsyncTcp p0 init [AttemptOk; ReadError; AttemptFail; Tick 512; AttemptOk; UserDisconnect]
  = [MadeCb; LostCb true; Attempt 0; Sleep 512; Attempt 512; MadeCb; Close; LostCb false].
Proof. vm_compute. reflexivity. Qed.

Example C20_example_links :
  links_made SyncTcp p0 init [AttemptOk; PeerReset; AttemptOk; Tick 2000] = 2%nat
  /\ links_lost SyncTcp p0 init [AttemptOk; PeerReset; AttemptOk; Tick 2000] = 2%nat.
Proof. vm_compute. split; reflexivity. Qed.

(* premises of reconnect_follows_loss / retry_timing / quiet_after_stop are reachable *)
Example C20_example_loss :
  let s := final SyncSerial p0 init [AttemptOk] in
  conn s = true /\ conn (fst (step SyncSerial p0 s WriteError)) = false
  /\ snd (step SyncSerial p0 s WriteError) = [LostCb false; Close; Attempt 0].
Proof. vm_compute. repeat split; reflexivity. Qed.

Example C20_example_sleeping :
  let s := final AsyncSerial p0 init [AttemptFail] in
  ct s = CSleeping 512 /\ now s < 512 /\ guard_ok AsyncSerial s
  /\ no_user [Send; Tick 300; ReadError; Tick 300] = true
  /\ first_attempt (outputs AsyncSerial p0 s [Send; Tick 300; ReadError; Tick 300]) = Some 512.
Proof. vm_compute. repeat split; reflexivity. Qed.

Example C20_example_stop :
  conn (final AsyncTcp p0 init [AttemptOk]) = true
  /\ snd (step AsyncTcp p0 (final AsyncTcp p0 init ([AttemptOk] ++ [ReadError; AttemptFail])) Stop) = [].
Proof. vm_compute. split; reflexivity. Qed.

(* stop() during the first connect loop (init satisfies the invariant; the loop is not
   cancellable): the dial in flight fails, sleeps, and nothing follows - also when the
   clock runs on and further events arrive; a dial that succeeds instead dies silently *)
Example C20_example_stop_first_loop :
  ct init = CDialing /\ cancellable init = false
  /\ outputs AsyncSerial p0 (fst (step AsyncSerial p0 init Stop)) [AttemptFail; Tick 512; Tick 512; AttemptOk; Send; Tick 2000]
     = [Sleep 512]
  /\ outputs AsyncTcp p0 (fst (step AsyncTcp p0 init Stop)) [Tick 300; AttemptOk; Tick 2000; Send] = []
  /\ outputs SyncTcp p0 (fst (step SyncTcp p0 init Stop)) [AttemptFail; Tick 512; Tick 512] = [Sleep 512].
Proof. vm_compute. repeat split; reflexivity. Qed.

(* ... and a user disconnect() while a reconnect loop (connect_task) sleeps ends that loop too *)
Example C20_example_disconnect_ends_loop :
  outputs AsyncTcp p0 init [AttemptOk; ReadError; AttemptFail; UserDisconnect; Tick 512; Tick 512]
  = [MadeCb; LostCb true; Attempt 0; Sleep 512].
Proof. vm_compute. reflexivity. Qed.

(* a timely schedule with two probes, the second answered exactly rt - delta late *)
Example C20_example_timely :
  let es := map WPoll [20; 40; 60; 80; 100; 120] ++ [WAnswer 120]
            ++ map WPoll [140; 160; 180; 200; 220; 240; 260; 280; 300; 320] ++ [WAnswer 320; WPoll 340] in
  timely 100 (100 - 20) 20 (wd_init 0) 0 0 es = true
  /\ length (filter (fun o => match o with WdProbe => true | _ => false end) (wd_run 100 (wd_init 0) es)) = 2%nat.
Proof. vm_compute. split; reflexivity. Qed.

(* silence from the connect on, threaded polls 21 ticks apart, rt = 512 *)
Example C20_example_silent :
  first_drop 512 (wd_init 0) (chain 21 0 60) = Some 1029.
Proof. vm_compute. reflexivity. Qed.

(* the asyncio chain with every probe answered exactly rt later *)
Example C20_example_async_chain :
  let es := [WPoll 615; WAnswer 1127; WPoll 1230; WAnswer 1742; WPoll 1845; WAnswer 2357] in
  periodic (512 + 103) 0 0 es = true /\ answered_each 512 (wd_init 0) false es = true
  /\ wd_run 512 (wd_init 0) es = [WdProbe; WdIdle; WdProbe; WdIdle; WdProbe; WdIdle].
Proof. vm_compute. repeat split; reflexivity. Qed.

Print Assumptions C20_reachable_inv.
Print Assumptions C20_callbacks_step.
Print Assumptions C20_made_once.
Print Assumptions C20_lost_once.
Print Assumptions C20_callbacks_alternate.
Print Assumptions C20_lost_exc.
Print Assumptions C20_reconnect_follows_loss_sync.
Print Assumptions C20_reconnect_follows_loss_async_partial.
Print Assumptions C20_reconnect_follows_loss_async_refuted.
Print Assumptions C20_retry_after_fail.
Print Assumptions C20_retry_timing.
Print Assumptions C20_quiet_after_stop_sync.
Print Assumptions C20_quiet_after_stop_async.
Print Assumptions C20_after_stop_at_most_one_sleep.
Print Assumptions C20_no_output_after_stop_async_connected.
Print Assumptions C20_quiet_after_stop_async_unfixed_refuted.
Print Assumptions C20_stop_ends_first_connect_loop.
Print Assumptions C20_watchdog_sync_tick.
Print Assumptions C20_watchdog_async_timer.
Print Assumptions C20_watchdog_timely_safe.
Print Assumptions C20_watchdog_boundary_refuted.
Print Assumptions C20_watchdog_silent_dropped.
Print Assumptions C20_watchdog_async_timely_safe.
Print Assumptions C20_watchdog_async_silent_dropped.
