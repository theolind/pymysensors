(* C16 - sending races safely with connection loss and shutdown.

   Programs: send_steps, disconnect_steps, connection_lost_steps, connection_made_steps are
   GENERATED (Gen/SendSteps.v) from /repo's mysensors/transport.py on every check run, one
   instruction per attribute load / store / call.  P_now bundles them; `final P sc sched` is the
   configuration after running schedule `sched` (any list of thread choices, true = sender)
   from the initial configuration of scenario `sc`. *)
From Coq Require Import List NArith Bool Arith Lia.
From PMS Require Import Base.Exn Model.SendRace Gen.SendSteps Proofs.SendRaceProofs.
Import ListNotations.

(* the model's enumerator `explore` misses no schedule (C16_send_race_safe uses a search over fewer
   configurations, SendRaceProofs.race_check, complete by the same lemma) *)
Theorem C16_explore_complete :
  forall (pa pb : list step) (sched : list bool) (c : config),
    In (run_sched pa pb sched c) (explore pa pb c).
Proof. exact explore_complete. Qed.

(* For each of the four events (connection_lost(None), connection_lost(exc), disconnect(),
   connection_lost(exc) followed by connection_made(new connection)), with the first connection
   open or already dead, with or without user callbacks, with or without a command, and for
   EVERY schedule (no preemption bound):
   - nothing is raised in the sender,
   - at most one write went through,
   - a write that went through (open at that moment) carried the complete encoded command,
   - without a command nothing is attempted,
   - once the sender was scheduled as often as its program is long it has returned,
   - (extra) the event code does not raise either. *)
Theorem C16_send_race_safe :
  forall (sc : scenario) (sched : list bool),
    let c := final P_now sc sched in
    t_exn (c_a c) = None
    /\ length (written (h_log (c_h c))) <= 1
    /\ (forall cid a, In (cid, a, true) (h_log (c_h c)) -> a = VMsgBytes)
    /\ (sc_msg sc = false -> h_log (c_h c) = [])
    /\ (length send_steps <= count_occ bool_dec sched true -> returned send_steps (c_a c))
    /\ t_exn (c_b c) = None.
Proof.
  intros sc sched c.
  destruct (safe_spec sc c (race_check_safe P_now race_check_now sc sched)) as (Ha & Hw & Hl & Hm & Hb).
  repeat apply conj; try assumption.
  - intro Hc. split; [exact Ha|].
    pose proof (sender_budget send_steps (event_prog P_now (sc_ev sc)) sched (init_cfg P_now sc)) as B.
    change (run_sched _ _ _ _) with c in B. unfold remaining in B. rewrite Ha in B.
    cbn [init_cfg c_a t_exn t_pc] in B. lia.
Qed.

(* the same statement is false for the pre-fix Transport.send (hand transcription in the model):
   a schedule ends with AttributeError in the sender, i.e. in the message pump *)
Theorem C16_send_race_unfixed_refuted :
  exists sc sched, t_exn (c_a (final P_unfixed sc sched)) = Some AttributeError.
Proof.
  exists (mkSc EvLostNoErr true false true), unfixed_witness_sched. vm_compute. reflexivity.
Qed.

(* k producers appending their job lists, one poll thread doing check-then-popleft, any merge
   of the atomic deque operations: popleft never hits an empty deque; sent ++ queue is the
   append linearisation (FIFO); each producer's jobs enter once and in its order *)
Theorem C16_queue_fifo_exactly_once :
  forall (job : Type) (lists : list (list job)) (evs : list qev),
    let s := qrun evs (qinit lists 1) in
    q_err s = false
    /\ q_appended s = q_sent s ++ q_queue s
    /\ (forall p, proj p (q_appended s) ++ nth p (q_pending s) [] = nth p lists [])
    /\ (forall x, In x (q_appended s) -> fst x < length lists).
Proof.
  intros job lists evs s. destruct (qinv_run job lists evs _ (qinv_init job lists 1 (le_n 1))) as [A B _ _ E F].
  repeat split; assumption.
Qed.

(* producers done and deque empty: exactly the producers' jobs were sent, each once, in
   per-producer order *)
Theorem C16_queue_drained :
  forall (job : Type) (lists : list (list job)) (evs : list qev),
    let s := qrun evs (qinit lists 1) in
    (forall p, nth p (q_pending s) [] = []) -> q_queue s = [] ->
    (forall p, proj p (q_sent s) = nth p lists []) /\ (forall x, In x (q_sent s) -> fst x < length lists).
Proof.
  intros job lists evs s Hp Hq.
  destruct (C16_queue_fifo_exactly_once job lists evs) as [_ [B [C D]]]. fold s in B, C, D.
  rewrite Hq, app_nil_r in B. rewrite B in C, D. split; [|exact D].
  intro p. specialize (C p). rewrite Hp, app_nil_r in C. exact C.
Qed.

(* with two poll threads the check-then-pop of run_job is NOT safe (outside the property:
   SyncTasks.start creates one poll thread; documents what the single-pump premise buys) *)
Theorem C16_queue_two_pumps_refuted :
  exists evs, q_err (qrun evs (qinit [[7%N]] 2)) = true.
Proof. exists [QProd 0; QPump 0; QPump 1; QPump 0; QPump 1]. vm_compute. reflexivity. Qed.

(* the generated queue accesses are the ones the queue model assumes *)
Example C16_run_job_ops : run_job_queue_ops = [QTruth; QPopleft] /\ add_job_queue_ops = [QAppend]
                          /\ sync_send_locked = true.
Proof. repeat split; reflexivity. Qed.

(* non-vacuity: the four outcomes really occur for the generated programs *)
(* sender first: one complete write on the open connection 0 *)
Example C16_ex_written :
  h_log (c_h (final P_now (mkSc EvLostErr true true true) (repeat true 60 ++ repeat false 60)))
  = [(0%N, VMsgBytes, true)].
Proof. vm_compute. reflexivity. Qed.
(* event first: the command is dropped, nothing attempted *)
Example C16_ex_dropped :
  h_log (c_h (final P_now (mkSc EvLostErr true true true) (repeat false 60 ++ repeat true 60))) = [].
Proof. vm_compute. reflexivity. Qed.
(* snapshot taken, connection closed by connection_lost(exc), then write: OSError handled,
   nothing written, second reconnect request *)
Example C16_ex_closed_under_the_sender :
  let c := final P_now (mkSc EvLostErr true true true) (repeat true 12 ++ repeat false 60 ++ repeat true 60) in
  h_log (c_h c) = [(0%N, VMsgBytes, false)] /\ h_reconn (c_h c) = 2%N /\ t_exn (c_a c) = None.
Proof. vm_compute. repeat split; reflexivity. Qed.
(* loss and reconnection first: the write goes to the new connection 1 *)
Example C16_ex_reconnected :
  h_log (c_h (final P_now (mkSc EvLostReconn true false true) (repeat false 80 ++ repeat true 60)))
  = [(1%N, VMsgBytes, true)].
Proof. vm_compute. reflexivity. Qed.
(* a queue run with two producers *)
Example C16_ex_queue :
  map snd (q_sent (qrun [QProd 0; QProd 1; QPump 0; QPump 0; QProd 0; QPump 0; QPump 0; QPump 0; QPump 0]
                        (qinit [[1%N; 2%N]; [10%N]] 1))) = [1%N; 10%N; 2%N].
Proof. vm_compute. reflexivity. Qed.

Print Assumptions C16_explore_complete.
Print Assumptions C16_send_race_safe.
Print Assumptions C16_send_race_unfixed_refuted.
Print Assumptions C16_queue_fifo_exactly_once.
Print Assumptions C16_queue_drained.
Print Assumptions C16_queue_two_pumps_refuted.
