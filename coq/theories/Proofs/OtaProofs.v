(* Lemmas about Model/Ota.v: prepare_fw, the block slice, the CRC range, the two response
   payloads and what the node reads back (the handlers of Model/OtaServe.v are in OtaServeProofs.v). *)
From Coq Require Import List NArith ZArith Bool Lia ZifyBool.
From PMS Require Import Base.PyStr Base.Exn Model.Hex Model.Ota
     Spec.OtaSpec Proofs.HexProofs.
Import ListNotations.

Lemma iter_snoc_repeat : forall {A} (x : A) k l,
  Nat.iter k (fun d => d ++ [x]) l = l ++ repeat x k.
Proof.
  intros A x k l. induction k as [|k IH].
  - cbn [Nat.iter repeat]. rewrite app_nil_r. reflexivity.
  - change (Nat.iter (S k) (fun d => d ++ [x]) l) with (Nat.iter k (fun d => d ++ [x]) l ++ [x]).
    rewrite IH, <- app_assoc. f_equal. cbn [repeat]. symmetry. apply repeat_cons.
Qed.

Lemma skipn_skipn : forall {A} a b (l : list A), skipn a (skipn b l) = skipn (b + a) l.
Proof.
  intros A a b. induction b as [|b IH]; intros l.
  - reflexivity.
  - destruct l as [|x l].
    + rewrite !skipn_nil. reflexivity.
    + cbn [Nat.add skipn]. apply IH.
Qed.

Lemma bytes_ok_firstn : forall n b, bytes_ok b = true -> bytes_ok (firstn n b) = true.
Proof.
  intros n b H. rewrite <- (firstn_skipn n b), bytes_ok_app in H.
  apply andb_true_iff in H. tauto.
Qed.

Lemma bytes_ok_skipn : forall n b, bytes_ok b = true -> bytes_ok (skipn n b) = true.
Proof.
  intros n b H. rewrite <- (firstn_skipn n b), bytes_ok_app in H.
  apply andb_true_iff in H. tauto.
Qed.

Lemma bytes_ok_repeat : forall k, bytes_ok (repeat 255%N k) = true.
Proof. induction k as [|k IH]; [reflexivity|]. cbn [repeat]. apply bytes_ok_cons. split; [reflexivity|assumption]. Qed.

Definition pad_count (img : list N) : nat := fw_page_size - List.length img mod fw_page_size.

Lemma prepare_fw_data : forall img, fw_data (prepare_fw img) = img ++ repeat 255%N (pad_count img).
Proof.
  intros img. unfold prepare_fw, fw_data, pad_count.
  apply iter_snoc_repeat.
Qed.

(* padding n up to the next multiple of p, a whole p when n is one already *)
Lemma pad_spec : forall p n : nat, p <> 0%nat -> exists q,
  (n + (p - n mod p) = p * q /\ 1 <= p - n mod p <= p /\ (p - n mod p = p <-> n mod p = 0))%nat.
Proof.
  intros p n Hp.
  pose proof (Nat.mod_upper_bound n p Hp) as Hb.
  pose proof (Nat.div_mod_eq n p) as Hd.
  exists (S (n / p)). lia.
Qed.

Lemma prepare_fw_length : forall img,
  List.length (fw_data (prepare_fw img)) = (List.length img + pad_count img)%nat.
Proof. intros img. rewrite prepare_fw_data, app_length, repeat_length. reflexivity. Qed.

Lemma prepare_fw_blocks : forall img,
  Z.of_nat (List.length (fw_data (prepare_fw img))) = (16 * fw_blocks (prepare_fw img))%Z.
Proof.
  intros img.
  change (fw_blocks (prepare_fw img)) with (Z.of_nat (List.length (fw_data (prepare_fw img))) / 16)%Z.
  apply Z.div_exact; [discriminate|]. rewrite prepare_fw_length. unfold pad_count.
  destruct (pad_spec fw_page_size (List.length img) ltac:(discriminate)) as (q & -> & _).
  rewrite Nat2Z.inj_mul. change (Z.of_nat fw_page_size) with (8 * 16)%Z.
  rewrite (Z.mul_comm (8 * 16)), Z.mul_assoc. apply Z.mod_mul. discriminate.
Qed.

Lemma prepare_fw_crc : forall img, fw_crc (prepare_fw img) = crc16_modbus (fw_data (prepare_fw img)).
Proof. intros img. unfold prepare_fw, fw_crc, fw_data. reflexivity. Qed.

Lemma prepare_fw_bytes : forall img, bytes_ok img = true -> bytes_ok (fw_data (prepare_fw img)) = true.
Proof.
  intros img H. rewrite prepare_fw_data, bytes_ok_app, H, bytes_ok_repeat. reflexivity.
Qed.

Lemma prepare_shape : forall img,
  exists k,
    fw_data (prepare_fw img) = img ++ repeat 255%N k /\
    (1 <= k <= 128)%nat /\
    (k = 128%nat <-> List.length img mod 128 = 0)%nat /\
    (List.length (fw_data (prepare_fw img)) mod 128 = 0)%nat /\
    Z.of_nat (List.length (fw_data (prepare_fw img))) = (16 * fw_blocks (prepare_fw img))%Z /\
    fw_crc (prepare_fw img) = crc16_modbus (fw_data (prepare_fw img)).
Proof.
  intros img. exists (pad_count img).
  destruct (pad_spec fw_page_size (List.length img) ltac:(discriminate)) as (q & Hq & Hr & Hf).
  split; [apply prepare_fw_data|]. split; [exact Hr|]. split; [exact Hf|].
  split; [rewrite prepare_fw_length; unfold pad_count; rewrite Hq, Nat.mul_comm; apply (Nat.mod_mul q fw_page_size); discriminate|].
  split; [apply prepare_fw_blocks|apply prepare_fw_crc].
Qed.

Lemma py_slice_index_nonneg : forall len i, (0 <= i)%Z -> py_slice_index len i = Z.min len i.
Proof. intros len i H. unfold py_slice_index. destruct (i <? 0)%Z eqn:E; [lia|reflexivity]. Qed.

(* every block, also the short last one and those beyond the end *)
Lemma fw_block_nonneg : forall (D : list N) (i : Z), (0 <= i)%Z ->
  fw_block D i = firstn 16 (skipn (16 * Z.to_nat i) D).
Proof.
  intros D i H. unfold fw_block, py_slice, fw_block_size. rewrite !py_slice_index_nonneg by lia.
  destruct (Z.le_gt_cases (Z.of_nat (List.length D)) (i * 16)) as [Hb|Hb].
  - rewrite !Z.min_l by lia. rewrite Z.sub_diag, (skipn_all2 (n := 16 * Z.to_nat i) D) by lia.
    reflexivity.
  - rewrite (Z.min_r _ (i * 16)) by lia.
    replace (Z.to_nat (i * 16)) with (16 * Z.to_nat i)%nat by lia.
    destruct (Z.le_gt_cases (i * 16 + 16) (Z.of_nat (List.length D))) as [Hc|Hc].
    + rewrite Z.min_r by lia. f_equal. lia.
    + rewrite Z.min_l by lia. rewrite !firstn_all2 by (rewrite skipn_length; lia). reflexivity.
Qed.

Lemma fw_block_bytes : forall D i, bytes_ok D = true -> bytes_ok (fw_block D i) = true.
Proof.
  intros D i H. unfold fw_block, py_slice. apply bytes_ok_firstn, bytes_ok_skipn. assumption.
Qed.

Lemma concat_chunks : forall n (D : list N), (List.length D <= 16 * n)%nat ->
  concat (map (fun i => firstn 16 (skipn (16 * i) D)) (seq 0 n)) = D.
Proof.
  induction n as [|n IH]; intros D H.
  - destruct D; [reflexivity|cbn [List.length] in H; lia].
  - rewrite <- cons_seq, <- seq_shift, map_cons, map_map. cbn [concat].
    rewrite Nat.mul_0_r, skipn_O.
    rewrite (map_ext (fun i => firstn 16 (skipn (16 * S i) D))
                     (fun i => firstn 16 (skipn (16 * i) (skipn 16 D)))).
    2:{ intros i. rewrite skipn_skipn. f_equal. f_equal. lia. }
    rewrite IH.
    + apply firstn_skipn.
    + rewrite skipn_length. lia.
Qed.

(* enough 16-byte blocks, in index order, are the data, whatever its length *)
Lemma blocks_concat : forall (D : list N) (B : nat), (List.length D <= 16 * B)%nat ->
  concat (map (fun i => fw_block D (Z.of_nat i)) (seq 0 B)) = D.
Proof.
  intros D B H. etransitivity; [|apply (concat_chunks B D H)]. f_equal.
  apply map_ext. intros i. rewrite fw_block_nonneg, Nat2Z.id by lia. reflexivity.
Qed.

Lemma answer_for_served : forall (D : list N) (reqs : list Z) (i : Z),
  In i reqs -> answer_for i (map (fun j => (j, fw_block D j)) reqs) = fw_block D i.
Proof.
  intros D reqs i. unfold answer_for. induction reqs as [|j r IH]; [intros []|].
  intros H. cbn [map List.find fst].
  destruct (Z.eqb j i) eqn:E.
  - apply Z.eqb_eq in E. subst j. reflexivity.
  - apply IH. destruct H as [H|H]; [lia|assumption].
Qed.

Open Scope N_scope.

Lemma lxor_lt_pow2 : forall a b n, a < 2 ^ n -> b < 2 ^ n -> N.lxor a b < 2 ^ n.
Proof.
  intros a b n Ha Hb. apply N.div_small_iff; [apply N.pow_nonzero; discriminate|].
  rewrite <- N.shiftr_div_pow2, N.shiftr_lxor, !N.shiftr_div_pow2, (N.div_small a), (N.div_small b)
    by assumption.
  reflexivity.
Qed.

Lemma crc_bit_range : forall c, c < 65536 -> crc_bit c < 65536.
Proof.
  intros c H. unfold crc_bit. rewrite N.div2_div.
  assert (H2 : c / 2 < 65536) by (apply N.div_lt_upper_bound; [discriminate|lia]).
  destruct (N.odd c); [|exact H2]. apply (lxor_lt_pow2 _ _ 16); [exact H2|reflexivity].
Qed.

Lemma crc_byte_range : forall c b, c < 65536 -> b < 256 -> crc_byte c b < 65536.
Proof.
  intros c b Hc Hb. unfold crc_byte.
  assert (H0 : N.lxor c b < 65536) by (apply (lxor_lt_pow2 _ _ 16); [exact Hc|lia]).
  revert H0. generalize (N.lxor c b) as x. generalize 8%nat as k.
  induction k as [|k IH]; intros x Hx; [exact Hx|]. apply crc_bit_range, IH, Hx.
Qed.

Lemma crc_fold_range : forall b c, bytes_ok b = true -> c < 65536 -> fold_left crc_byte b c < 65536.
Proof.
  (* the induction is about any step function f that keeps the range: with crc_byte itself in
     the goal, checking the proof term at Qed unfolds it (eight rounds of crc_bit) at every byte *)
  intros b c Hb. revert c. generalize crc_byte_range. generalize crc_byte as f. intros f Hf.
  induction b as [|x b IH]; intros c Hc; [exact Hc|].
  apply bytes_ok_cons in Hb. destruct Hb as [Hx Hb].
  apply (IH Hb), Hf; [exact Hc|exact Hx].
Qed.

Lemma crc16_range : forall b, bytes_ok b = true -> word_ok (crc16_modbus b) = true.
Proof.
  intros b H. unfold crc16_modbus.
  pose proof (crc_fold_range b 65535 H eq_refl). apply word_ok_iff. lia.
Qed.

Close Scope N_scope.

Lemma words_ok3 : forall a b c, words_ok [a; b; c] = word_ok a && word_ok b && word_ok c.
Proof. intros. unfold words_ok. cbn [forallb]. rewrite andb_true_r, andb_assoc. reflexivity. Qed.

Lemma fw_response_payload_ok : forall t v i fw,
  word_ok t = true -> word_ok v = true -> word_ok i = true ->
  fw_response_payload t v i fw =
    Ok (hexlify (le16 t ++ le16 v ++ le16 i) ++ hexlify (fw_block (fw_data fw) i)).
Proof.
  intros t v i fw Ht Hv Hi. unfold fw_response_payload.
  rewrite fw_int_to_hex_ok by (rewrite words_ok3, Ht, Hv, Hi; reflexivity).
  cbn [bind map concat]. rewrite app_nil_r. reflexivity.
Qed.

(* the node reads back exactly the (type, version, index) it asked for and the block *)
Lemma response_echo : forall t v i fw p,
  bytes_ok (fw_data fw) = true ->
  fw_response_payload t v i fw = Ok p ->
  parse_response p = Ok ([t; v; i], fw_block (fw_data fw) i) /\
  p = hexlify (le16 t ++ le16 v ++ le16 i) ++ hexlify (fw_block (fw_data fw) i).
Proof.
  intros t v i fw p Hd Hp.
  destruct (words_ok [t; v; i]) eqn:W;
    [|unfold fw_response_payload in Hp; rewrite (fw_int_to_hex_err _ W) in Hp; discriminate].
  pose proof W as W3. rewrite words_ok3 in W3. apply andb_true_iff in W3 as [W3 Hi]. apply andb_true_iff in W3 as [Ht Hv].
  rewrite (fw_response_payload_ok t v i fw Ht Hv Hi) in Hp.
  assert (E : p = hexlify (le16 t ++ le16 v ++ le16 i) ++ hexlify (fw_block (fw_data fw) i)) by congruence.
  subst p. split; [|reflexivity].
  unfold parse_response. rewrite <- hexlify_app, unhexlify_hexlify.
  - cbn [bind].
    (* le16 of a word is literally a two-element list: the first six bytes are the header by computation *)
    change (firstn 6 ((le16 t ++ le16 v ++ le16 i) ++ fw_block (fw_data fw) i))
      with (concat (map le16 [t; v; i])).
    change (skipn 6 ((le16 t ++ le16 v ++ le16 i) ++ fw_block (fw_data fw) i))
      with (fw_block (fw_data fw) i).
    rewrite (unpack_pack [t; v; i] _ (pack_le16_ok _ W) : unpack_le16 3 _ = _). reflexivity.
  - rewrite bytes_ok_app, (fw_block_bytes _ _ Hd), andb_true_r.
    exact (proj1 (pack_le16_bytes [t; v; i] _ (pack_le16_ok _ W))).
Qed.

Lemma fw_config_payload_ok : forall t v fw,
  word_ok t = true -> word_ok v = true -> fware_ok fw ->
  fw_config_payload t v fw =
    Ok (hexlify (le16 t ++ le16 v ++ le16 (fw_blocks fw) ++ le16 (fw_crc fw))).
Proof.
  intros t v fw Ht Hv (img & Hb & Hf & Hblk). unfold fw_config_payload.
  assert (Hc : word_ok (fw_crc fw) = true).
  { rewrite Hf, prepare_fw_crc. apply crc16_range, prepare_fw_bytes, Hb. }
  assert (Hn : word_ok (fw_blocks fw) = true).
  { apply word_ok_iff. split; [|exact Hblk]. rewrite Hf. apply Z.div_pos; [apply Nat2Z.is_nonneg|reflexivity]. }
  rewrite fw_int_to_hex_ok.
  - cbn [map concat]. rewrite app_nil_r. reflexivity.
  - unfold words_ok. cbn [forallb]. rewrite Ht, Hv, Hn, Hc. reflexivity.
Qed.
