(* Smart sleep (C07 / C08): the transition relation `trans` that every handler, the dispatcher,
   every controller call and every step of the machine satisfies.  It records what may be
   emitted (log / job queue deltas), how hold queues, the sleeping flag, desired values and
   reported values of every node may change, relative to the CAUSE of the transition. *)
From Coq Require Import List NArith ZArith Bool String Lia.
From PMS Require Import Base.PyStr Base.PyInt Base.Exn Model.Codec Model.Rules Model.TableTypes
  Gen.Tables Model.Validate Model.Hex Model.Ota Model.Oracles Model.Gateway Spec.SerialApi
  Proofs.PyStrFacts Proofs.PyIntFacts Proofs.CodecProofs Proofs.ValidateProofs Proofs.GwLemmas Proofs.GwInv
  Proofs.SleepDefs Proofs.SleepFlush.
Import ListNotations.
Open Scope string_scope.
Open Scope list_scope.
Open Scope Z_scope.

(* what a transition is about *)
Inductive cause :=
| CNone
| CWake (n : Z)               (* the wake-up announcement of node n is being processed *)
| CReport (n c vt : Z)        (* a set message (a report) from node n, child c, value type vt *)
| CDesire (n c vt : Z).       (* the controller call set_child_value n c vt *)

(* desired values: without the controller call for (k, c, vt) a desired value can only persist
   or be cleared; without a report for (k, c, vt) either it persists *)
Definition des_step (cz : cause) (k : Z) (nd nd' : node) : Prop :=
  forall c vt, cz <> CDesire k c vt ->
    (desired nd' c vt = desired nd c vt \/ desired nd' c vt = None) /\
    (cz <> CReport k c vt -> desired nd' c vt = desired nd c vt).

(* the children dict is keyed by child.id *)
Definition kids_ok (nd : node) : Prop := forall c ch, zassoc c (n_children nd) = Some ch -> c_id ch = c.

(* children are never removed; they keep their id and the value types they have reported *)
Definition kids_ext (chs chs' : list (Z * child)) : Prop :=
  forall c ch, zassoc c chs = Some ch ->
    exists ch', zassoc c chs' = Some ch' /\ c_id ch' = c_id ch /\
                forall vt, zhas vt (c_values ch) = true -> zhas vt (c_values ch') = true.

Record node_step (cz : cause) (k : Z) (nd nd' : node) : Prop := mkNodeStep {
  ns_id : n_id nd' = n_id nd;
  ns_kids_ok : kids_ok nd -> kids_ok nd';
  ns_sleeps : sleeping nd = true -> sleeping nd' = true;
  ns_queue_ok : Forall (qentry k) (n_queue nd) -> Forall (qentry k) (n_queue nd');
  (* outside its own wake-up a node does not start sleeping and loses no withheld string *)
  ns_calm : cz <> CWake k -> sleeping nd' = sleeping nd /\ exists ext, n_queue nd' = n_queue nd ++ ext;
  ns_desired : des_step cz k nd nd';
  ns_kids : kids_ext (n_children nd) (n_children nd') }.
Arguments ns_id {cz k nd nd'}. Arguments ns_kids_ok {cz k nd nd'}. Arguments ns_sleeps {cz k nd nd'}.
Arguments ns_queue_ok {cz k nd nd'}. Arguments ns_calm {cz k nd nd'}. Arguments ns_desired {cz k nd nd'}.
Arguments ns_kids {cz k nd nd'}.

Lemma des_step_same cz k nd nd' : (forall c vt, desired nd' c vt = desired nd c vt) -> des_step cz k nd nd'.
Proof. intros H c vt _. split; [left; apply H|intros _; apply H]. Qed.

Lemma kids_ext_refl chs : kids_ext chs chs.
Proof. intros c ch H. exists ch. auto. Qed.

Lemma app_nil_ext {A} (l : list A) : exists ext, l = l ++ ext.
Proof. exists []. symmetry. apply app_nil_r. Qed.

(* a node that keeps desired state and queue *)
Lemma node_step_kids cz k nd nd' :
  n_id nd' = n_id nd -> n_new nd' = n_new nd -> n_queue nd' = n_queue nd -> (kids_ok nd -> kids_ok nd') ->
  kids_ext (n_children nd) (n_children nd') -> node_step cz k nd nd'.
Proof.
  intros E1 E2 E3 KO C.
  constructor; [exact E1|exact KO|unfold sleeping; rewrite E2; auto|rewrite E3; auto| | |exact C].
  - intros _. unfold sleeping. rewrite E2, E3. split; [reflexivity|apply app_nil_ext].
  - apply des_step_same. intros c vt. unfold desired. rewrite E2. reflexivity.
Qed.

(* ... and its children *)
Lemma node_step_same cz k nd nd' :
  n_id nd' = n_id nd -> n_new nd' = n_new nd -> n_queue nd' = n_queue nd -> n_children nd' = n_children nd ->
  node_step cz k nd nd'.
Proof.
  intros E1 E2 E3 E4. apply node_step_kids; try assumption; unfold kids_ok; rewrite E4; [auto|apply kids_ext_refl].
Qed.

Lemma node_step_refl cz k nd : node_step cz k nd nd.
Proof. apply node_step_same; reflexivity. Qed.

Lemma node_step_trans cz k a b c : node_step cz k a b -> node_step cz k b c -> node_step cz k a c.
Proof.
  intros [I1 K1 S1 Q1 W1 D1 C1] [I2 K2 S2 Q2 W2 D2 C2]. constructor; [congruence|auto|auto|auto| | |].
  - intro N. destruct (W1 N) as [E1 [x1 X1]]. destruct (W2 N) as [E2 [x2 X2]].
    split; [congruence|]. exists (x1 ++ x2). rewrite X2, X1, app_assoc. reflexivity.
  - intros ch vt N. destruct (D1 ch vt N) as [A1 B1]. destruct (D2 ch vt N) as [A2 B2]. split.
    + destruct A2 as [A2|A2]; [rewrite A2; exact A1|right; exact A2].
    + intro N2. rewrite B2, B1; auto.
  - intros ch0 ch H. destruct (C1 _ _ H) as (ch1 & H1 & E1 & V1).
    destruct (C2 _ _ H1) as (ch2 & H2 & E2 & V2). exists ch2. split; [exact H2|]. split; [congruence|auto].
Qed.

(* a string appended to the hold queue *)
Lemma enqueue_step cz k nd m : m_node m = k -> node_step cz k nd (with_queue nd (n_queue nd ++ [encode m])).
Proof.
  intros <-. constructor; [reflexivity|auto|auto| | |apply des_step_same; reflexivity|apply kids_ext_refl].
  - intro F. cbn [with_queue n_queue]. apply Forall_app. split; [exact F|]. constructor; [|constructor].
    exists m. split; reflexivity.
  - intros _. split; [reflexivity|]. eexists. reflexivity.
Qed.

(* writing one entry of an existing desired-state slot *)
Lemma with_new_slot_step cz k nd c vt x dv :
  zassoc c (n_new nd) = Some dv -> ((cz = CReport k c vt /\ x = None) \/ cz = CDesire k c vt) ->
  node_step cz k nd (with_new nd (zset c (zset vt x dv) (n_new nd))).
Proof.
  intros D CZ.
  assert (SL : sleeping nd = true) by (unfold sleeping; destruct (n_new nd); [discriminate D|reflexivity]).
  constructor; [reflexivity|auto|intros _; apply sleeping_zset|auto| | |apply kids_ext_refl].
  - intros _. split; [rewrite SL; apply sleeping_zset|apply app_nil_ext].
  - intros c' vt' N2. rewrite (desired_slot nd c vt x dv c' vt' D).
    destruct (Z.eqb_spec c' c) as [->|NC]; [|split; [left|]; reflexivity].
    destruct (Z.eqb_spec vt' vt) as [->|NV]; [|split; [left|]; reflexivity].
    destruct CZ as [[-> ->] | ->]; [|contradiction N2; reflexivity].
    (* a report: the entry is cleared *)
    split; [right; reflexivity|intro N1; contradiction N1; reflexivity].
Qed.

Lemma update_child_value_step k nd c vt p :
  node_step (CReport k c vt) k nd (update_child_value nd c vt p).
Proof.
  unfold update_child_value. destruct (zassoc c (n_children nd)) as [ch|] eqn:CH; [|apply node_step_refl].
  set (ch' := mkChild (c_id ch) (c_type ch) (c_desc ch) (zset vt (PS p) (c_values ch))).
  assert (S1 : node_step (CReport k c vt) k nd (with_children nd (zset c ch' (n_children nd)))).
  { apply node_step_kids; try reflexivity.
    - intros KO c0 ch0. cbn [with_children n_children]. rewrite zassoc_zset.
      destruct (Z.eqb_spec c0 c) as [->|N]; [|apply KO]. intro H. inversion H. exact (KO _ _ CH).
    - intros c0 ch0 H. cbn [with_children n_children]. rewrite zassoc_zset.
      destruct (Z.eqb_spec c0 c) as [->|N]; [|exists ch0; auto].
      exists ch'. split; [reflexivity|]. rewrite CH in H. inversion H; subst ch0. split; [reflexivity|].
      intros vt0 Z. unfold ch'. cbn [c_values]. rewrite zhas_zset, Z. apply orb_true_r. }
  destruct (zassoc c (n_new nd)) as [dv|] eqn:D; [|exact S1].
  eapply node_step_trans; [exact S1|].
  apply (with_new_slot_step _ k (with_children nd (zset c ch' (n_children nd))) c vt None dv D). left. split; reflexivity.
Qed.

(* the wake-up: queue released, a slot for every child *)
Lemma woken_step k nd : node_step (CWake k) k nd (woken nd).
Proof.
  constructor; [reflexivity|auto| |intros _; constructor|intro N; contradiction N; reflexivity| |apply kids_ext_refl].
  - change (sleeping (woken nd)) with (sleeping (init_smart_sleep nd)).
    rewrite init_sleeping. intro S. rewrite S. destruct (n_children nd); reflexivity.
  - apply des_step_same. exact (init_desired nd).
Qed.

Definition nodes_step (cz : cause) (g g' : gw) : Prop :=
  (forall k nd, get_node g k = Some nd -> exists nd', get_node g' k = Some nd' /\ node_step cz k nd nd') /\
  (* a node that appears evolves from the fresh node *)
  (forall k nd', get_node g k = None -> get_node g' k = Some nd' -> node_step cz k (new_node k) nd').

Lemma nodes_step_eq cz g g' : g_sensors g' = g_sensors g -> nodes_step cz g g'.
Proof.
  intro E. unfold nodes_step, get_node. rewrite E. split.
  - intros k nd H. exists nd. split; [exact H|apply node_step_refl].
  - intros k nd' H1 H2. congruence.
Qed.

Lemma nodes_step_trans cz a b c : nodes_step cz a b -> nodes_step cz b c -> nodes_step cz a c.
Proof.
  intros [A1 N1] [A2 N2]. split.
  - intros k nd H. destruct (A1 _ _ H) as (nd1 & H1 & S1). destruct (A2 _ _ H1) as (nd2 & H2 & S2).
    exists nd2. split; [exact H2|]. eapply node_step_trans; eassumption.
  - intros k nd' H1 H3. destruct (get_node b k) as [ndb|] eqn:Hb.
    + pose proof (N1 _ _ H1 Hb) as S1. destruct (A2 _ _ Hb) as (nd2 & H2 & S2).
      rewrite H3 in H2. inversion H2; subst nd2. eapply node_step_trans; eassumption.
    + apply (N2 _ _ Hb H3).
Qed.

(* a string that may leave the gateway (be handed to add_job_send / returned as the reply) in a
   transition that started in state g0 with cause cz: the encoding of a message that is of
   stream type, or addressed to the node whose wake-up announcement is being processed, or
   addressed to a node that was unknown or not sleeping in g0 *)
Definition allowed (g0 : gw) (cz : cause) (s : pstr) : Prop :=
  exists m, s = encode m /\
    (m_type m = vt_stream (tab g0) \/ cz = CWake (m_node m) \/
     match get_node g0 (m_node m) with Some nd => sleeping nd = false | None => True end).

Definition ev_allowed (g0 : gw) (cz : cause) (e : event) : Prop :=
  match e with ESend s => allowed g0 cz s | _ => True end.
Definition job_allowed (g0 : gw) (cz : cause) (j : job) : Prop :=
  match j with JSend s => allowed g0 cz s | JLogic _ => False end.

Record trans (cz : cause) (g g' : gw) : Prop := mkTrans {
  t_cf : g_cf g' = g_cf g;
  t_log : exists d, g_log g' = g_log g ++ d /\ Forall (ev_allowed g cz) d;
  t_jobs : exists j, g_jobs g' = g_jobs g ++ j /\ Forall (job_allowed g cz) j /\
                     (cf_async (g_cf g) = true -> j = []);
  t_nodes : nodes_step cz g g' }.

Lemma allowed_back cz g g' s : g_cf g' = g_cf g -> nodes_step cz g g' -> allowed g' cz s -> allowed g cz s.
Proof.
  intros C [A N] (m & E & H). exists m. split; [exact E|].
  destruct H as [H|[H|H]]; [left; unfold tab in *; rewrite <- C; exact H|right; left; exact H|].
  destruct (get_node g (m_node m)) as [nd|] eqn:G; [|right; right; exact I].
  destruct (A _ _ G) as (nd' & G' & NS). rewrite G' in H.
  right. right. destruct (sleeping nd) eqn:S; [rewrite (ns_sleeps NS S) in H; discriminate|reflexivity].
Qed.

Lemma trans_trans cz a b c : trans cz a b -> trans cz b c -> trans cz a c.
Proof.
  intros [C1 (d1 & L1 & F1) (j1 & J1 & G1 & A1) N1] [C2 (d2 & L2 & F2) (j2 & J2 & G2 & A2) N2].
  constructor; [congruence| | |eapply nodes_step_trans; eassumption].
  - exists (d1 ++ d2). rewrite L2, L1, app_assoc. split; [reflexivity|].
    apply Forall_app. split; [exact F1|].
    revert F2. apply Forall_impl. intros [s|m t|e]; simpl; auto. apply allowed_back; assumption.
  - exists (j1 ++ j2). rewrite J2, J1, app_assoc. split; [reflexivity|]. split.
    + apply Forall_app. split; [exact G1|].
      revert G2. apply Forall_impl. intros [l|s]; simpl; auto. apply allowed_back; assumption.
    + intro X. rewrite A1 by exact X. rewrite A2 by (rewrite C1; exact X). reflexivity.
Qed.

(* nothing emitted *)
Lemma trans_nodes cz g g' :
  g_cf g' = g_cf g -> g_log g' = g_log g -> g_jobs g' = g_jobs g -> nodes_step cz g g' -> trans cz g g'.
Proof.
  intros C L J N. constructor; [exact C| | |exact N]; exists []; rewrite app_nil_r.
  - split; [exact L|constructor].
  - split; [exact J|]. split; [constructor|reflexivity].
Qed.

(* a change of the fields that carry no node / output information *)
Lemma trans_fields cz g g' :
  g_cf g' = g_cf g -> g_sensors g' = g_sensors g -> g_jobs g' = g_jobs g -> g_log g' = g_log g -> trans cz g g'.
Proof. intros C S J L. apply trans_nodes; try assumption. apply nodes_step_eq. exact S. Qed.

Lemma trans_refl cz g : trans cz g g.
Proof. apply trans_fields; reflexivity. Qed.

Lemma trans_emit cz g e : ev_allowed g cz e -> trans cz g (emit g e).
Proof.
  intro H. constructor; [reflexivity| | |apply nodes_step_eq; reflexivity].
  - exists [e]. split; [reflexivity|]. constructor; [exact H|constructor].
  - exists []. rewrite app_nil_r. split; [reflexivity|]. split; [constructor|reflexivity].
Qed.

Lemma trans_send cz g s : allowed g cz s -> trans cz g (send g s).
Proof. intro H. unfold send. destruct s; [apply trans_refl|apply trans_emit; exact H]. Qed.

Lemma trans_add_job_send cz g s : allowed g cz s -> trans cz g (add_job_send g s).
Proof.
  intro H. unfold add_job_send. destruct (cf_async (g_cf g)) eqn:A; [apply trans_send; exact H|].
  constructor; [reflexivity| | |apply nodes_step_eq; reflexivity].
  - exists []. rewrite app_nil_r. split; [reflexivity|constructor].
  - exists [JSend s]. split; [reflexivity|]. split; [constructor; [exact H|constructor]|congruence].
Qed.

Lemma trans_alert cz g m : trans cz g (alert g m).
Proof.
  unfold alert. set (g1 := if cf_callback (g_cf g) then _ else g). apply (trans_trans _ _ g1).
  - unfold g1. destruct (cf_callback (g_cf g)); [apply trans_emit; exact I|apply trans_refl].
  - destruct (cf_persist (g_cf g)); [apply trans_fields; reflexivity|apply trans_refl].
Qed.

Lemma trans_add_sensor cz g sid : trans cz g (add_sensor g sid).
Proof.
  unfold add_sensor. destruct (zhas sid (g_sensors g)) eqn:Z; [apply trans_refl|].
  apply trans_nodes; try reflexivity. unfold nodes_step, get_node. cbn [set_sensors g_sensors].
  split; intros k nd; rewrite zassoc_app.
  - intro H. rewrite H. exists nd. split; [reflexivity|apply node_step_refl].
  - intros -> H. cbn [zassoc] in H. destruct (Z.eqb_spec k sid) as [->|N]; [|discriminate].
    inversion H. apply node_step_refl.
Qed.

Section Handlers.
  Variable orc : oracles.
  Variable clock : Z.

  Definition IdInv (g : gw) : Prop := forall k nd, get_node g k = Some nd -> n_id nd = k.

  Lemma IdInv_of_Inv g : Inv orc g -> IdInv g.
  Proof. intros I k nd G. exact (proj1 (get_node_ok orc g k nd I G)). Qed.

  (* replacing the node stored under key k *)
  Lemma trans_put_node cz g k nd nd' :
    IdInv g -> get_node g k = Some nd -> node_step cz k nd nd' -> trans cz g (put_node g nd').
  Proof.
    intros Q G S. apply trans_nodes; try reflexivity.
    assert (E : n_id nd' = k) by (rewrite (ns_id S); exact (Q _ _ G)).
    split; intros k0 nd0; rewrite get_node_put, E; destruct (Z.eqb_spec k0 k) as [->|N].
    - rewrite G. intro H. inversion H; subst nd0. exists nd'. auto.
    - intro H. exists nd0. split; [exact H|apply node_step_refl].
    - congruence.
    - congruence.
  Qed.

  (* ... by one that keeps desired state, children and queue *)
  Lemma trans_put_same cz g k nd nd' : IdInv g -> get_node g k = Some nd ->
    n_id nd' = n_id nd -> n_new nd' = n_new nd -> n_queue nd' = n_queue nd -> n_children nd' = n_children nd ->
    trans cz g (put_node g nd').
  Proof. intros Q G E1 E2 E3 E4. apply (trans_put_node cz g k nd nd' Q G). apply node_step_same; assumption. Qed.

  (* a property of nodes that node_step preserves and the fresh node has is an invariant *)
  Lemma nodes_step_inv (P : Z -> node -> Prop) cz g g' :
    (forall k nd nd', node_step cz k nd nd' -> P k nd -> P k nd') -> (forall k, P k (new_node k)) ->
    nodes_step cz g g' -> (forall k nd, get_node g k = Some nd -> P k nd) ->
    forall k nd', get_node g' k = Some nd' -> P k nd'.
  Proof.
    intros S N0 [A N] H k nd' G'. destruct (get_node g k) as [nd|] eqn:G.
    - destruct (A _ _ G) as (nd2 & G2 & S2). rewrite G' in G2. inversion G2; subst nd2. exact (S _ _ _ S2 (H _ _ G)).
    - exact (S _ _ _ (N _ _ G G') (N0 k)).
  Qed.

  Lemma nodes_step_IdInv cz g g' : nodes_step cz g g' -> IdInv g -> IdInv g'.
  Proof.
    intros N H. refine (nodes_step_inv (fun k nd => n_id nd = k) cz g g' _ _ N H); [|reflexivity].
    intros k nd nd' NS H0. rewrite (ns_id NS). exact H0.
  Qed.

  Lemma nodes_step_QInv cz g g' : nodes_step cz g g' -> QInv g -> QInv g'.
  Proof.
    intros N H. refine (nodes_step_inv (fun k nd => Forall (qentry k) (n_queue nd)) cz g g' _ _ N H); [|constructor].
    intros k nd nd'. apply ns_queue_ok.
  Qed.

  Definition CInv (g : gw) : Prop := forall k nd, get_node g k = Some nd -> kids_ok nd.

  Lemma nodes_step_CInv cz g g' : nodes_step cz g g' -> CInv g -> CInv g'.
  Proof.
    intros N H. refine (nodes_step_inv (fun _ => kids_ok) cz g g' _ _ N H); [|intros k c ch H0; discriminate H0].
    intros k nd nd'. apply ns_kids_ok.
  Qed.

  Lemma route_trans cz g m : IdInv g ->
    trans cz g (fst (route g m)) /\
    (forall m', snd (route g m) = Some m' -> m' = m /\ fst (route g m) = g /\ allowed g cz (encode m)).
  Proof.
    intro Q. destruct (route_cases g m) as [(nd & G & SL & ->)|[E [N|[S P]]]].
    - split; [|discriminate]. apply (trans_put_node _ g (m_node m) nd _ Q G). apply enqueue_step. reflexivity.
    - rewrite E, N. split; [apply trans_refl|discriminate].
    - rewrite E, S. split; [apply trans_refl|]. intros m' [= <-]. split; [reflexivity|]. split; [reflexivity|].
      exists m. split; [reflexivity|]. destruct P; auto.
  Qed.

  (* is_sensor: the presentation request is routed like any other command *)
  Lemma ask_trans cz g sid : IdInv g -> trans cz g (ask g sid).
  Proof.
    intros Q. unfold ask, deliver. destruct (_ && _); [|apply trans_refl].
    set (m := mkMsg sid system_child_id 3 0 19 []).
    destruct (route_trans cz g m Q) as [T A]. destruct (route g m) as [g0 [m'|]]; cbn [fst snd] in *; [|exact T].
    destruct (A m' eq_refl) as (-> & -> & AL). apply trans_add_job_send. exact AL.
  Qed.

  Lemma unknown_trans cz g sid cid g1 : facts g -> IdInv g -> is_sensor g sid cid = Ok (g1, false) -> trans cz g g1.
  Proof.
    intros F Q E. rewrite (is_sensor_closed g sid cid F) in E.
    destruct (registered g sid cid); inversion E. apply ask_trans, Q.
  Qed.

  (* result of a handler: whenever it returns, the state moved by a `trans` *)
  Definition htrans (cz : cause) (g : gw) (r : res (gw * option msg)) : Prop :=
    forall g' rep, r = Ok (g', rep) -> trans cz g g'.

  Lemma htrans_ret cz g g' rep : trans cz g g' -> htrans cz g (Ok (g', rep)).
  Proof. intros T g2 rep2 H. inversion H; subst. exact T. Qed.
  (* a statement that can only raise before the rest of the call *)
  Lemma htrans_bind {A} cz g (r : res A) k : (forall a, htrans cz g (k a)) -> htrans cz g (bind r k).
  Proof. intro H. destruct r; [apply H|discriminate]. Qed.

  (* the frame of the handlers (GwLemmas.known_node_frame): only the body on a known node is left *)
  Lemma known_node_trans cz g sid cid (body : gw -> node -> res (gw * option msg)) :
    facts g -> Inv orc g -> (forall nd, get_node g sid = Some nd -> htrans cz g (body g nd)) ->
    htrans cz g (do gr <- is_sensor g sid cid;
                 let '(g1, known) := gr in
                 if negb known then Ok (g1, None)
                 else match get_node g1 sid with None => Raise KeyError | Some nd => body g1 nd end).
  Proof.
    intros F I K. apply known_node_frame; [intros e _ g' rep H; discriminate H| |exact K].
    intros g1 E. apply htrans_ret. exact (unknown_trans cz g sid cid g1 F (IdInv_of_Inv g I) E).
  Qed.

  Lemma handle_presentation_trans cz g m : facts g -> Inv orc g -> htrans cz g (handle_presentation orc g m).
  Proof.
    intros F I. unfold handle_presentation. destruct (m_child m =? system_child_id).
    - destruct (get_node_add_sensor g (m_node m)) as [nd G]. rewrite G. apply htrans_ret.
      eapply trans_trans; [apply trans_add_sensor|]. eapply trans_trans; [|apply trans_alert].
      eapply trans_put_same; [apply IdInv_of_Inv, Inv_add_sensor; exact I|exact G|reflexivity..].
    - apply known_node_trans; [exact F|exact I|]. intros nd G.
      destruct (zhas (m_child m) (n_children nd)) eqn:ZH; apply htrans_ret; [apply trans_refl|].
      eapply trans_trans; [|apply trans_alert].
      apply (trans_put_node _ g (m_node m) nd _ (IdInv_of_Inv g I) G).
      apply node_step_kids; try reflexivity.
      + intros KO c ch. cbn [with_children n_children]. rewrite zassoc_app.
        destruct (zassoc c (n_children nd)) as [ch0|] eqn:Z0; [intro H; inversion H; subst; exact (KO _ _ Z0)|].
        cbn [zassoc]. destruct (Z.eqb_spec c (m_child m)) as [->|N]; [|discriminate].
        intro H. inversion H. reflexivity.
      + intros c ch H. cbn [with_children n_children]. rewrite zassoc_app, H. exists ch. auto.
  Qed.

  Lemma handle_set_trans g m : facts g -> Inv orc g ->
    htrans (CReport (m_node m) (m_child m) (m_sub m)) g (handle_set g m).
  Proof.
    intros F I. unfold handle_set. apply known_node_trans; [exact F|exact I|]. intros nd G.
    assert (T : trans (CReport (m_node m) (m_child m) (m_sub m)) g
                  (alert (put_node g (update_child_value nd (m_child m) (m_sub m) (m_payload m))) m)).
    { eapply trans_trans; [|apply trans_alert].
      apply (trans_put_node _ g (m_node m) nd _ (IdInv_of_Inv g I) G). apply update_child_value_step. }
    destruct (n_reboot _); [do 2 (apply htrans_bind; intro)|]; apply htrans_ret; exact T.
  Qed.

  Lemma handle_req_trans cz g m : facts g -> Inv orc g -> htrans cz g (handle_req g m).
  Proof.
    intros F I. unfold handle_req. apply known_node_trans; [exact F|exact I|]. intros nd _.
    destruct (get_desired_value nd (m_child m) (m_sub m)); [apply htrans_bind; intro|];
      apply htrans_ret; apply trans_refl.
  Qed.

  Lemma handle_id_request_trans cz g m : htrans cz g (handle_id_request g m).
  Proof.
    unfold handle_id_request. destruct (next_id g) as [nid|]; [|apply htrans_ret; apply trans_refl].
    destruct (negb (zhas nid (g_sensors (add_sensor g nid)))); [apply htrans_ret; apply trans_add_sensor|].
    do 2 (apply htrans_bind; intro). apply htrans_ret.
    eapply trans_trans; [apply trans_add_sensor|apply trans_alert].
  Qed.

  Lemma node_attr_trans cz f g m : facts g -> Inv orc g ->
    (forall nd p, n_id (f nd p) = n_id nd /\ n_new (f nd p) = n_new nd /\ n_queue (f nd p) = n_queue nd /\
                  n_children (f nd p) = n_children nd) ->
    htrans cz g (node_attr_handler f g m).
  Proof.
    intros F I Hf. unfold node_attr_handler. apply known_node_trans; [exact F|exact I|]. intros nd G.
    apply htrans_ret. destruct (Hf nd (m_payload m)) as (H1 & H2 & H3 & H4).
    eapply trans_trans; [|apply trans_alert]. eapply trans_put_same; [apply IdInv_of_Inv; exact I|eassumption..].
  Qed.

  Lemma respond_fw_config_trans cz g m : htrans cz g (respond_fw_config g m).
  Proof.
    unfold respond_fw_config. destruct (fw_hex_to_int (m_payload m) 5); [|apply htrans_ret; apply trans_refl].
    destruct (ota_get_fw (g_ota g) (m_node m) true None) as [o' r].
    assert (T : trans cz g (set_ota g o')) by (apply trans_fields; reflexivity).
    destruct r as [[[t v] f]|]; [do 3 (apply htrans_bind; intro)|]; apply htrans_ret; exact T.
  Qed.

  Lemma respond_fw_trans cz g m : htrans cz g (respond_fw g m).
  Proof.
    unfold respond_fw. destruct (fw_hex_to_int (m_payload m) 3) as [ws|e]; [|apply htrans_ret; apply trans_refl].
    destruct ws as [|rt [|rv [|rb [|x y]]]]; try (apply htrans_ret; apply trans_refl).
    destruct (ota_get_fw (g_ota g) (m_node m) false (Some (rt, rv))) as [o' r].
    assert (T : trans cz g (set_ota g o')) by (apply trans_fields; reflexivity).
    destruct r as [[[t v] f]|]; [do 3 (apply htrans_bind; intro)|]; apply htrans_ret; exact T.
  Qed.

  Lemma allowed_ext g g' cz s : g_sensors g' = g_sensors g -> g_cf g' = g_cf g -> allowed g cz s -> allowed g' cz s.
  Proof. intros S C (m & E & H). exists m. split; [exact E|]. unfold tab, get_node in *. rewrite S, C. exact H. Qed.

  Lemma trans_fold_add_job cz ss : forall g, Forall (allowed g cz) ss -> trans cz g (fold_left add_job_send ss g).
  Proof.
    induction ss as [|s r IH]; intros g F; simpl; [apply trans_refl|].
    inversion F as [|? ? A F']; subst.
    eapply trans_trans; [apply trans_add_job_send; exact A|]. apply IH.
    destruct (add_job_send_frame g s) as (S & _ & C & _).
    revert F'. apply Forall_impl. intros x. apply allowed_ext; assumption.
  Qed.

  Lemma handle_smartsleep_trans g k nd g2 : Inv orc g -> get_node g k = Some nd ->
    Forall (qentry k) (n_queue nd) -> handle_smartsleep orc g nd = Ok g2 -> trans (CWake k) g g2.
  Proof.
    intros I G Q H. rewrite (handle_smartsleep_closed orc g k nd I G) in H. inversion H; subst g2; clear H.
    pose proof (IdInv_of_Inv g I k nd G) as ID.
    apply (trans_trans _ _ (put_node g (woken nd))).
    - apply (trans_put_node _ g k nd _ (IdInv_of_Inv g I) G). apply woken_step.
    - (* every string of the flush is addressed to k *)
      apply trans_fold_add_job. unfold flush_strings, desired_sets. apply Forall_app. split.
      + revert Q. apply Forall_impl. intros s (m0 & -> & E). exists m0. split; [reflexivity|].
        right. left. rewrite E. reflexivity.
      + apply Forall_forall. intros s IN. apply in_map_iff in IN as (m0 & <- & IN).
        apply In_desired_msgs in IN as (c & ch & vt & x & v & _ & _ & _ & ->).
        eexists. split; [reflexivity|]. right. left. cbn. rewrite ID. reflexivity.
  Qed.

  Lemma handle_heartbeat_trans g m : facts g -> Inv orc g -> QInv g ->
    htrans (CWake (m_node m)) g (handle_heartbeat_response orc g m).
  Proof.
    intros F I Q. unfold handle_heartbeat_response. apply known_node_trans; [exact F|exact I|].
    intros nd G. destruct (handle_smartsleep_ok orc g (m_node m) nd I G) as (g2 & E2 & I2 & C2 & nd2 & G2).
    rewrite E2. cbn [bind]. rewrite G2. apply htrans_ret.
    eapply trans_trans; [exact (handle_smartsleep_trans g _ nd g2 I G (Q _ _ G) E2)|].
    eapply trans_trans; [|apply trans_alert].
    eapply trans_put_same; [apply IdInv_of_Inv; exact I2|exact G2|reflexivity..].
  Qed.

  Lemma handle_pre_sleep_trans g m : facts g -> Inv orc g -> QInv g ->
    htrans (CWake (m_node m)) g (handle_pre_sleep orc g m).
  Proof.
    intros F I Q. unfold handle_pre_sleep. apply known_node_trans; [exact F|exact I|]. intros nd G.
    destruct (handle_smartsleep orc g nd) as [g2|e] eqn:E2; cbn [bind]; [|discriminate].
    apply htrans_ret. exact (handle_smartsleep_trans g _ nd g2 I G (Q _ _ G) E2).
  Qed.

  Lemma handle_discover_trans cz g m : facts g -> Inv orc g -> htrans cz g (handle_discover_response g m).
  Proof.
    intros F I. unfold handle_discover_response. rewrite (is_sensor_closed g _ _ F).
    apply htrans_ret. destruct (registered g _ _); [apply trans_refl|apply ask_trans, IdInv_of_Inv, I].
  Qed.

  (* leaves of the internal / stream dispatch: only the two wake-up handlers need a cause *)
  Lemma run_leaf_trans cz h g m : facts g -> Inv orc g -> QInv g ->
    (is_wake_h (Some h) = true -> cz = CWake (m_node m)) -> htrans cz g (run_leaf orc clock h g m).
  Proof.
    intros F I Q W.
    assert (A : forall f, (forall nd p, n_id (f nd p) = n_id nd /\ n_new (f nd p) = n_new nd /\
                                        n_queue (f nd p) = n_queue nd /\ n_children (f nd p) = n_children nd) ->
                          htrans cz g (node_attr_handler f g m)) by (intro f; apply node_attr_trans; assumption).
    destruct h; unfold run_leaf; try discriminate.
    - apply respond_fw_config_trans.
    - apply respond_fw_trans.
    - apply handle_id_request_trans.
    - unfold handle_config. apply htrans_bind; intro. apply htrans_ret. apply trans_refl.
    - unfold handle_time. apply htrans_bind; intro. apply htrans_ret. apply trans_refl.
    - apply A. intros; repeat split; reflexivity.
    - apply A. intros; repeat split; reflexivity.
    - apply A. intros; repeat split; reflexivity.
    - apply htrans_ret. apply trans_refl.
    - apply htrans_ret. apply trans_alert.
    - unfold handle_gateway_ready_20. do 2 (apply htrans_bind; intro). apply htrans_ret. apply trans_alert.
    - rewrite (W eq_refl). apply handle_heartbeat_trans; assumption.
    - apply handle_discover_trans; assumption.
    - apply A. intros; repeat split; reflexivity.
    - rewrite (W eq_refl). apply handle_pre_sleep_trans; assumption.
  Qed.

  Definition report_msg (t : vtab) (m : msg) : bool :=
    match type_handler t (m_type m) with Some HSet => true | _ => false end.
  Definition msg_cause (t : vtab) (m : msg) : cause :=
    if wake_msg t m then CWake (m_node m)
    else if report_msg t m then CReport (m_node m) (m_child m) (m_sub m)
    else CNone.
  Definition line_cause (g : gw) (l : pstr) : cause :=
    match decode l with
    | Some m => if gvalidate orc g m then msg_cause (tab g) m else CNone
    | None => CNone
    end.

  Lemma run_handler_trans h g m : facts g -> Inv orc g -> QInv g -> type_handler (tab g) (m_type m) = Some h ->
    htrans (msg_cause (tab g) m) g (run_handler orc clock h g m).
  Proof.
    intros F I Q TH.
    (* a wake-up handler reached through the internal / stream dispatcher: the message is a wake-up announcement *)
    assert (L : forall hl, (h = HInternal \/ h = HStream) -> sub_handler (tab g) (m_type m) (m_sub m) = Some hl ->
                  htrans (msg_cause (tab g) m) g (run_leaf orc clock hl g m)).
    { intros hl H SH. apply run_leaf_trans; try assumption. intro W.
      unfold msg_cause, wake_msg, wake_ts. rewrite TH, SH. destruct H as [-> | ->]; rewrite W; reflexivity. }
    destruct h; unfold run_handler; try discriminate.
    - apply handle_presentation_trans; assumption.
    - unfold msg_cause, wake_msg, wake_ts, report_msg. rewrite TH. apply handle_set_trans; assumption.
    - apply handle_req_trans; assumption.
    - unfold handle_internal.
      destruct (sub_handler (tab g) (m_type m) (m_sub m)) as [hl|] eqn:SH; [auto|apply htrans_ret; apply trans_refl].
    - unfold handle_stream.
      rewrite (is_sensor_closed g _ _ F).
      destruct (registered g _ _); cbn [bind negb]; [|apply htrans_ret, ask_trans, IdInv_of_Inv, I].
      destruct (sub_handler (tab g) (m_type m) (m_sub m)) as [hl|] eqn:SH; [|apply htrans_ret; apply trans_refl].
      pose proof (L hl (or_intror eq_refl) eq_refl) as H.
      destruct (run_leaf orc clock hl g m) as [[g2 resp]|e]; cbn [bind]; [|discriminate].
      apply htrans_ret. eapply trans_trans; [exact (H _ _ eq_refl)|apply trans_alert].
  Qed.

  Theorem logic_trans g l g' reply : cfg_ok (g_cf g) -> Inv orc g -> QInv g ->
    logic orc clock g l = Ok (g', reply) ->
    trans (line_cause g l) g g' /\ (forall r, reply = Some r -> allowed g (line_cause g l) r).
  Proof.
    intros C I Q. pose proof (facts_of_cfg g C) as F. unfold logic, line_cause.
    destruct (decode l) as [m|]; [|intro H; inversion H; split; [apply trans_refl|discriminate]].
    destruct (gvalidate orc g m); cbn [negb]; [|intro H; inversion H; split; [apply trans_refl|discriminate]].
    destruct (type_handler (tab g) (m_type m)) as [h|] eqn:TH; [|discriminate].
    pose proof (run_handler_trans h g m F I Q TH) as HT.
    destruct (run_handler orc clock h g m) as [[g1 rep]|e]; cbn [bind]; [|discriminate].
    pose proof (HT _ _ eq_refl) as T1.
    destruct rep as [mr|]; cbn [route_opt]; [|intro H; inversion H; subst; split; [exact T1|discriminate]].
    destruct (route_trans (msg_cause (tab g) m) g1 mr (nodes_step_IdInv _ _ _ (t_nodes _ _ _ T1) (IdInv_of_Inv g I)))
      as [T2 A2].
    destruct (route g1 mr) as [g2 routed]. cbn [fst snd] in *.
    intro H. inversion H; subst g' reply; clear H. split.
    - eapply trans_trans; [exact T1|exact T2].
    - intros r R. destruct routed as [m'|]; [|discriminate]. simpl in R. inversion R; subst r.
      destruct (A2 m' eq_refl) as (-> & _ & AL).
      apply (allowed_back _ g g1); [exact (t_cf _ _ _ T1)|exact (t_nodes _ _ _ T1)|exact AL].
  Qed.

  Definition desire_cause (sid cid : Z) (vt : vtarg) : cause :=
    match vt_int vt with Some vti => CDesire sid cid vti | None => CNone end.

  Lemma set_child_value_trans g sid cid vt v mt a g' : facts g -> Inv orc g ->
    set_child_value orc g sid cid vt v mt a = Ok g' -> trans (desire_cause sid cid vt) g g'.
  Proof.
    intros F I. revert g'. unfold set_child_value.
    apply (known_node_frame (fun r => forall g', r = Ok g' -> trans (desire_cause sid cid vt) g g')).
    { intros e _ g' H. discriminate H. }
    { intros g1 E g' [= <-]. exact (unknown_trans _ g sid (Some cid) g1 F (IdInv_of_Inv g I) E). }
    intros nd G g'. pose proof (IdInv_of_Inv g I sid nd G) as ID.
    destruct (sleeping nd) eqn:SL.
    - destruct (create_set_message orc g (n_id nd) cid vt v None None); cbn [bind]; [|discriminate].
      destruct (zassoc cid (n_new nd)) as [dv|] eqn:D; [|discriminate].
      destruct (validate_child_state orc nd cid vt v); cbn [bind]; [|discriminate].
      unfold desire_cause. destruct (vt_int vt) as [vti|]; [|discriminate].
      intro H. inversion H; subst g'; clear H.
      apply (trans_put_node _ g sid nd _ (IdInv_of_Inv g I) G).
      apply with_new_slot_step; [exact D|right; reflexivity].
    - unfold create_set_message. destruct (vt_int vt); [|discriminate].
      destruct (gvalidate orc g _); cbn [bind]; [|discriminate].
      intro H. inversion H; subst g'; clear H. apply trans_add_job_send.
      eexists. split; [reflexivity|]. right. right. cbn [m_node]. rewrite ID, G. exact SL.
  Qed.

  Lemma update_fold_trans cz t v nids g : IdInv g -> trans cz g (fold_left (update_one t v) nids g).
  Proof.
    intro Q. apply (fold_left_preserves _ (trans cz g)); [|apply trans_refl].
    intros a nid T. eapply trans_trans; [exact T|]. unfold update_one.
    destruct (get_node a nid) as [nd|] eqn:G; [|apply trans_refl].
    match goal with |- trans _ _ (put_node ?x _) => apply (trans_trans _ _ x) end; [apply trans_fields; reflexivity|].
    apply (trans_put_same _ _ nid nd); [exact (nodes_step_IdInv _ _ _ (t_nodes _ _ _ T) Q)|exact G|reflexivity..].
  Qed.

  Lemma update_fw_trans cz g nids fwt fwv bin g' : Inv orc g -> update_fw g nids fwt fwv bin = Ok g' -> trans cz g g'.
  Proof.
    intros I H. destruct (update_fw_closed _ _ _ _ _ _ H) as [->|(t & v & fwl & _ & _ & G)]; [apply trans_refl|].
    destruct G as [->| ->]; [|eapply trans_trans; [|apply update_fold_trans; exact (IdInv_of_Inv g I)]];
      apply trans_fields; reflexivity.
  Qed.

  Definition finish (g1 : gw) (reply : option pstr) : gw :=
    match reply with Some r => send g1 r | None => g1 end.

  Lemma trans_then_send cz g g1 r : trans cz g g1 -> allowed g cz r -> trans cz g (send g1 r).
  Proof.
    intros [C (d & L & F) J N] A. unfold send.
    destruct r as [|c r]; [constructor; [exact C|exists d; split; assumption|exact J|exact N]|].
    constructor; [exact C| |exact J|exact N].
    exists (d ++ [ESend (c :: r)]). split; [simpl; rewrite L, app_assoc; reflexivity|].
    apply Forall_app. split; [exact F|]. constructor; [exact A|constructor].
  Qed.

  Theorem logic_finish_trans g l g1 reply : cfg_ok (g_cf g) -> Inv orc g -> QInv g ->
    logic orc clock g l = Ok (g1, reply) -> trans (line_cause g l) g (finish g1 reply).
  Proof.
    intros C I Q E. destruct (logic_trans g l g1 reply C I Q E) as [T A].
    destruct reply as [r|]; [|exact T]. simpl. apply trans_then_send; [exact T|]. apply A. reflexivity.
  Qed.

  Definition op_cause (g : gw) (o : op) : cause :=
    match o with
    | Recv l => if cf_async (g_cf g) then line_cause g l else CNone
    | Pump => match g_jobs g with JLogic l :: _ => line_cause g l | _ => CNone end
    | SetChild s c vt _ _ _ => desire_cause s c vt
    | _ => CNone
    end.

  (* the job queue a step starts from: a pump iteration pops the head first *)
  Definition jobs_base (g : gw) (o : op) : list job :=
    match o with Pump => tl (g_jobs g) | _ => g_jobs g end.
  (* a send that an EARLIER step queued is handed to the transport by this pump iteration *)
  Definition queued_send (g : gw) (o : op) (s : pstr) : Prop := o = Pump /\ exists r, g_jobs g = JSend s :: r.
  (* threaded flavour: an arriving line is queued for the pump *)
  Definition queued_line (g : gw) (o : op) (x : job) : Prop :=
    exists l, o = Recv l /\ cf_async (g_cf g) = false /\ x = JLogic l.

  Record strans (g : gw) (o : op) (g' : gw) : Prop := mkStrans {
    s_cf : g_cf g' = g_cf g;
    s_log : exists d, g_log g' = g_log g ++ d /\
              Forall (fun e => ev_allowed g (op_cause g o) e \/ exists s, e = ESend s /\ queued_send g o s) d;
    s_jobs : exists j, g_jobs g' = jobs_base g o ++ j /\
              Forall (fun x => job_allowed g (op_cause g o) x \/ queued_line g o x) j;
    s_nodes : nodes_step (op_cause g o) g g' }.

  Lemma strans_of_trans g o g0 g' :
    g_cf g0 = g_cf g -> g_sensors g0 = g_sensors g -> g_log g0 = g_log g -> g_jobs g0 = jobs_base g o ->
    trans (op_cause g o) g0 g' -> strans g o g'.
  Proof.
    intros C S L J [C' (d & L' & F) (j & J' & G & _) [A N]].
    constructor; [congruence| | |].
    - exists d. split; [congruence|]. revert F. apply Forall_impl.
      intros [s|m t|e] H; left; simpl in *; auto. apply (allowed_ext g0 g); auto.
    - exists j. split; [congruence|]. revert G. apply Forall_impl.
      intros [l|s] H; left; simpl in *; auto. apply (allowed_ext g0 g); auto.
    - unfold nodes_step, get_node in *. rewrite S in A, N. split; assumption.
  Qed.

  Theorem step_strans g o : cfg_ok (g_cf g) -> Inv orc g -> QInv g -> op_ok o -> strans g o (step orc clock g o).
  Proof.
    intros C I Q O. pose proof (facts_of_cfg g C) as F.
    destruct o as [l| |s c vt v mt a|ns t v b|b]; cbn [step].
    - unfold recv. destruct (cf_async (g_cf g)) eqn:AS.
      + destruct (logic_total orc clock g l C I) as (g1 & r & E & _). rewrite E.
        apply (strans_of_trans g (Recv l) g); try reflexivity.
        unfold op_cause. rewrite AS. exact (logic_finish_trans g l g1 r C I Q E).
      + constructor; [reflexivity| | |apply nodes_step_eq; reflexivity].
        * exists []. rewrite app_nil_r. split; [reflexivity|constructor].
        * exists [JLogic l]. split; [reflexivity|]. constructor; [|constructor].
          right. exists l. auto.
    - unfold pump. destruct (g_jobs g) as [|[l|l] r] eqn:J.
      + apply (strans_of_trans g Pump g); try reflexivity; [simpl; rewrite J; reflexivity|apply trans_refl].
      + set (g0 := set_jobs g r).
        destruct (logic_total orc clock g0 l C (Inv_set_jobs orc g r I)) as (g1 & rep & E & _). rewrite E.
        apply (strans_of_trans g Pump g0); try reflexivity; [simpl; rewrite J; reflexivity|].
        unfold op_cause. rewrite J.
        exact (logic_finish_trans g0 l g1 rep C (Inv_set_jobs orc g r I) Q E).
      + constructor; [rewrite cf_send; reflexivity| | |].
        * unfold send. destruct l as [|c0 l0].
          -- exists []. rewrite app_nil_r. split; [reflexivity|constructor].
          -- exists [ESend (c0 :: l0)]. split; [reflexivity|]. constructor; [|constructor].
             right. exists (c0 :: l0). split; [reflexivity|]. split; [reflexivity|]. exists r. exact J.
        * exists []. rewrite app_nil_r. split; [|constructor].
          destruct (send_frame (set_jobs g r) l) as (_&_&_&JJ&_). rewrite JJ. simpl. rewrite J. reflexivity.
        * apply nodes_step_eq. destruct (send_frame (set_jobs g r) l) as (SS&_). rewrite SS. reflexivity.
    - apply (strans_of_trans g _ g); try reflexivity. unfold op_cause.
      destruct (set_child_value orc g s c vt v mt a) as [g'|e] eqn:E.
      + exact (set_child_value_trans g s c vt v mt a g' F I E).
      + apply trans_emit. exact Logic.I.
    - apply (strans_of_trans g _ g); try reflexivity. unfold op_cause.
      destruct (update_fw g ns t v b) as [g'|e] eqn:E.
      + exact (update_fw_trans _ g ns t v b g' I E).
      + apply trans_emit. exact Logic.I.
    - apply (strans_of_trans g _ g); try reflexivity. apply trans_fields; reflexivity.
  Qed.

  Lemma step_good g o : cfg_ok (g_cf g) -> Inv orc g -> QInv g -> op_ok o ->
    cfg_ok (g_cf (step orc clock g o)) /\ Inv orc (step orc clock g o) /\ QInv (step orc clock g o).
  Proof.
    intros C I Q O. destruct (step_ok orc clock g o C I O) as [I1 C1]. rewrite C1.
    split; [exact C|]. split; [exact I1|].
    exact (nodes_step_QInv _ _ _ (s_nodes _ _ _ (step_strans g o C I Q O)) Q).
  Qed.

  Lemma run_sleep_inv ops : forall g, cfg_ok (g_cf g) -> Inv orc g -> QInv g -> Forall op_ok ops ->
    Inv orc (run orc clock g ops) /\ QInv (run orc clock g ops) /\ g_cf (run orc clock g ops) = g_cf g /\
    (CInv g -> CInv (run orc clock g ops)).
  Proof.
    induction ops as [|o ops IH]; intros g C I Q F; [auto|].
    inversion F as [|? ? O F']; subst.
    destruct (step_good g o C I Q O) as (C1 & I1 & Q1).
    destruct (IH _ C1 I1 Q1 F') as (I2 & Q2 & C2 & K2).
    split; [exact I2|]. split; [exact Q2|]. split.
    - etransitivity; [exact C2|]. apply (step_ok orc clock g o C I O).
    - intro K. apply K2. exact (nodes_step_CInv _ _ _ (s_nodes _ _ _ (step_strans g o C I Q O)) K).
  Qed.

  Theorem reachable_sleep_inv cf ops : cfg_ok cf -> Forall op_ok ops ->
    let g := run orc clock (gw_init cf) ops in Inv orc g /\ QInv g /\ CInv g /\ g_cf g = cf.
  Proof.
    intros C F. assert (N : forall k nd, get_node (gw_init cf) k = Some nd -> False) by discriminate.
    destruct (run_sleep_inv ops (gw_init cf) C (Inv_init orc cf)) as (I & Q & E & K); auto.
    - intros k nd H. destruct (N k nd H).
    - split; [exact I|]. split; [exact Q|]. split; [|exact E]. apply K. intros k nd H. destruct (N k nd H).
  Qed.
End Handlers.
