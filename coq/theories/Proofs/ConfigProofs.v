(* C18 - the version selection of the model meets the floor rule: awesomeversion's comparison on dotted
   numeric strings is the numeric one (av_lt_num_spec, av_gt_num_spec); the three GENERATED tests get their numeric meaning
   (eval_vtest_num and the three _test_num lemmas); get_const = the Spec's floor (get_const_floor, through the table read
   downwards, ConfigOrder.floor_module_down); safe_is_version, the gateway's and a node's constants, the
   is_sensor test; values that are not dotted numeric go through the oracle (nonnumeric_fallback, nonnumeric_accepted); the witness of
   the repaired finding b5ee08d. *)
From Coq Require Import List NArith ZArith Bool Lia Arith String.
From PMS Require Import Base.PyStr Base.PyInt Base.Exn Proofs.PyStrFacts
  Model.ConfigSyntax Model.ConfigVersion Model.Config Model.ConfigCheck
  Spec.ConfigSpec Proofs.ConfigOrder Gen.Signatures.
Import ListNotations.
Open Scope N_scope.
Open Scope list_scope.

(* ---- awesomeversion's comparison of dotted numeric strings is the numeric one,
   except that its == is equality of the strings *)
Lemma base_cmp_cmpr a : forall b,
  base_cmp a b = match cmpr a b with Gt => Some true | Lt => Some false | Eq => None end.
Proof.
  induction a as [|x a IH]; intros b.
  - destruct b; simpl; [reflexivity|]. unfold nonzero, nz. simpl.
    destruct (negb (n =? 0) || existsb (fun x => negb (x =? 0)) b); reflexivity.
  - destruct b as [|y b].
    + simpl. unfold nonzero, nz. simpl.
      destruct (negb (x =? 0) || existsb (fun x => negb (x =? 0)) a); reflexivity.
    + simpl. destruct (N.eqb_spec x y) as [->|Hxy].
      * rewrite N.compare_refl. apply IH.
      * destruct (x ?= y) eqn:E.
        -- apply N.compare_eq in E. congruence.
        -- rewrite N.compare_lt_iff in E. assert (H : y <? x = false) by (apply N.ltb_ge; lia).
           rewrite H. reflexivity.
        -- rewrite N.compare_gt_iff in E. assert (H : y <? x = true) by (apply N.ltb_lt; lia).
           rewrite H. reflexivity.
Qed.

Theorem av_gt_num_spec a b :
  av_gt_num a b = match cmpv (sections a) (sections b) with Gt => true | _ => false end.
Proof.
  unfold av_gt_num. destruct (pstr_eqb a b) eqn:E.
  - apply pstr_eqb_eq in E. subst b. rewrite cmpv_refl. reflexivity.
  - rewrite base_cmp_cmpr, <- cmpv_cmpr. destruct (cmpv (sections a) (sections b)); reflexivity.
Qed.

Theorem av_lt_num_spec a b :
  av_lt_num a b = match cmpv (sections a) (sections b) with Lt => true | _ => false end.
Proof.
  unfold av_lt_num. destruct (pstr_eqb a b) eqn:E.
  - apply pstr_eqb_eq in E. subst b. rewrite cmpv_refl. reflexivity.
  - rewrite base_cmp_cmpr, <- cmpv_cmpr, (cmpv_antisym (sections a) (sections b)).
    destruct (cmpv (sections a) (sections b)); reflexivity.
Qed.

(* the quirk that made D18: >= is "same string or greater" *)
Example av_ge_quirk :
  av_num OpGe (s2p "2.0.0") (s2p "2.0") = false /\ av_num OpLt (s2p "2.0.0") (s2p "2.0") = false.
Proof. vm_compute. auto. Qed.

Lemma not_lt_is_le a b : negb (av_lt_num a b) = le_numb (sections b) (sections a).
Proof.
  rewrite av_lt_num_spec. unfold le_numb. rewrite (cmpv_antisym (sections a) (sections b)).
  destruct (cmpv (sections a) (sections b)); reflexivity.
Qed.

Lemma not_gt_is_le a b : negb (av_gt_num a b) = le_numb (sections a) (sections b).
Proof. rewrite av_gt_num_spec. unfold le_numb. destruct (cmpv (sections a) (sections b)); reflexivity. Qed.

Section WithOracle.
Variable orc : avop -> pstr -> pstr -> option bool.
Variable cont : pstr -> bool.

(* ---- the three generated tests, on dotted numeric input.  The proofs accept any
   spelling of the test that means the same (operands swapped, negated, ...):
   the test is first given its numeric meaning, then compared with the wanted
   one by cases on the comparison of the sections. *)
Definition op_sem (op : avop) (same : bool) (c : comparison) : bool :=
  match op with
  | OpLt => match c with Lt => true | _ => false end
  | OpGt => match c with Gt => true | _ => false end
  | OpEq => same
  | OpNe => negb same
  | OpLe => same || match c with Lt => true | _ => false end
  | OpGe => same || match c with Gt => true | _ => false end
  end.

Lemma av_num_sem op l r :
  av_num op l r = op_sem op (pstr_eqb l r) (cmpv (sections l) (sections r)).
Proof. destruct op; simpl; rewrite ?av_lt_num_spec, ?av_gt_num_spec; reflexivity. Qed.

Lemma eval_vtest_num t v k :
  dotted_numeric (side_val (vt_l t) v k) = true -> dotted_numeric (side_val (vt_r t) v k) = true ->
  eval_vtest orc t v k =
  Some (xorb (vt_neg t)
          (op_sem (vt_op t) (pstr_eqb (side_val (vt_l t) v k) (side_val (vt_r t) v k))
             (cmpv (sections (side_val (vt_l t) v k)) (sections (side_val (vt_r t) v k))))).
Proof.
  intros Hl Hr. unfold eval_vtest, av_cmp. rewrite Hl, Hr. cbn [andb option_map].
  rewrite av_num_sem. reflexivity.
Qed.

Ltac side_dotted H := cbn [vt_l vt_r side_val]; first [exact H | assumption | vm_compute; reflexivity].

Lemma get_const_test_num v k : dotted_numeric v = true -> dotted_numeric k = true ->
  eval_vtest orc get_const_test v k = Some (le_numb (sections k) (sections v)).
Proof.
  intros Hv Hk. unfold get_const_test. rewrite eval_vtest_num by side_dotted Hv.
  cbn [vt_neg vt_op vt_l vt_r side_val op_sem]. unfold le_numb.
  rewrite ?(cmpv_antisym (sections v) (sections k)).
  destruct (cmpv (sections v) (sections k)); reflexivity.
Qed.

Lemma is_version_test_num v : dotted_numeric v = true ->
  eval_vtest orc is_version_test v [] = Some (negb (le_numb [1; 4] (sections v))).
Proof.
  intros Hv. unfold is_version_test. rewrite eval_vtest_num by side_dotted Hv.
  cbn [vt_neg vt_op vt_l vt_r side_val op_sem]. unfold le_numb.
  replace (sections (s2p "1.4")) with [1; 4] by (vm_compute; reflexivity).
  rewrite ?(cmpv_antisym (sections v) [1; 4]).
  destruct (cmpv (sections v) [1; 4]); reflexivity.
Qed.

Lemma is_sensor_test_num v : dotted_numeric v = true ->
  eval_vtest orc is_sensor_test v [] = Some (le_numb [2; 0] (sections v)).
Proof.
  intros Hv. unfold is_sensor_test. rewrite eval_vtest_num by side_dotted Hv.
  cbn [vt_neg vt_op vt_l vt_r side_val op_sem]. unfold le_numb.
  replace (sections (s2p "2.0")) with [2; 0] by (vm_compute; reflexivity).
  rewrite ?(cmpv_antisym (sections v) [2; 0]).
  destruct (cmpv (sections v) [2; 0]); reflexivity.
Qed.

(* ---- get_const scans the keys in the generated order *)
Fixpoint pick (sv : list N) (l : list (list N * option pstr)) : res pstr :=
  match l with
  | [] => Ok get_const_default
  | (c, m) :: r => if le_numb c sv then of_option KeyError m else pick sv r
  end.

Lemma get_const_pick v ks : dotted_numeric v = true -> forallb dotted_numeric ks = true ->
  (do m <- first_match orc v ks;
   match m with Some k => of_option KeyError (assoc k const_versions) | None => Ok get_const_default end)
  = pick (sections v) (map (fun k => (sections k, assoc k const_versions)) ks).
Proof.
  intros Hv. induction ks as [|k ks IH]; intro Hks; [reflexivity|].
  simpl in Hks. apply andb_prop in Hks. destruct Hks as [Hk Hks].
  cbn [first_match map pick]. rewrite (get_const_test_num v k Hv Hk).
  destruct (le_numb (sections k) (sections v)); [reflexivity|]. apply IH. exact Hks.
Qed.

(* side conditions on the generated table, re-checked on every build *)
Lemma iter_keys_dotted : forallb dotted_numeric iter_keys = true.
Proof. vm_compute. reflexivity. Qed.

Lemma iter_keys_table :
  map (fun k => (sections k, assoc k const_versions)) iter_keys =
  map (fun cm => (fst cm, Some (snd cm))) supported_down.
Proof. vm_compute. reflexivity. Qed.

Lemma pick_find sv l :
  pick sv (map (fun cm => (fst cm, Some (snd cm))) l)
  = Ok match List.find (not_above sv) l with Some (_, m) => m | None => get_const_default end.
Proof.
  induction l as [|[c m] l IH]; simpl; [reflexivity|]. unfold not_above at 1. simpl.
  destruct (le_numb c sv); [reflexivity|exact IH].
Qed.

Lemma gen_supported_is_spec : gen_supported = supported.
Proof. vm_compute. reflexivity. Qed.

Lemma defaults_are_spec :
  get_const_default = fallback_module /\ sections safe_fallback = fallback_version
  /\ sections sensor_default_version = fallback_version.
Proof. vm_compute. auto. Qed.

(* get_const = the floor function of the specification *)
Theorem get_const_floor v : dotted_numeric v = true ->
  get_const orc v = Ok (floor_module (sections v)).
Proof.
  intro Hv. unfold get_const.
  rewrite (get_const_pick v iter_keys Hv iter_keys_dotted), iter_keys_table, pick_find, floor_module_down.
  reflexivity.
Qed.

(* safe_is_version keeps a version that is numerically >= 1.4 and replaces any older one *)
Theorem safe_is_version_num v : dotted_numeric v = true ->
  safe_is_version orc cont (VStr v) = Ok (if le_numb [1; 4] (sections v) then v else s2p "1.4").
Proof.
  intro Hv. unfold safe_is_version, safe_is_version_with, is_version_with, is_container. cbn [py_str].
  rewrite Hv. cbn [negb andb]. rewrite andb_false_r. rewrite (is_version_test_num v Hv).
  destruct (le_numb [1; 4] (sections v)); reflexivity.
Qed.

Lemma older_than_all v : le_numb [1; 4] v = false -> floor_module v = fallback_module.
Proof.
  intro E. rewrite floor_module_down, (find_not_above_none [1; 4] v); [reflexivity|exact E|reflexivity].
Qed.

(* what a gateway configured with a dotted numeric version uses *)
Theorem gateway_const_floor v : dotted_numeric v = true ->
  gateway_const orc cont (VStr v) = Ok (floor_module (sections v)).
Proof.
  intro Hv. unfold gateway_const. rewrite (safe_is_version_num v Hv).
  destruct (le_numb [1; 4] (sections v)) eqn:E; cbn [bind].
  - apply get_const_floor. exact Hv.
  - rewrite (older_than_all _ E). rewrite get_const_floor by (vm_compute; reflexivity).
    vm_compute. reflexivity.
Qed.

(* the ">= 2.0" test of is_sensor, applied to the gateway's stored version *)
Theorem wants_presentation_num v : dotted_numeric v = true ->
  (do s <- safe_is_version orc cont (VStr v); wants_presentation orc s)
  = Ok (le_numb [2; 0] (sections v)).
Proof.
  intro Hv. rewrite (safe_is_version_num v Hv).
  destruct (le_numb [1; 4] (sections v)) eqn:E; cbn [bind]; unfold wants_presentation.
  - rewrite (is_sensor_test_num v Hv). reflexivity.
  - rewrite is_sensor_test_num by (vm_compute; reflexivity).
    replace (le_numb [2; 0] (sections (s2p "1.4"))) with false by (vm_compute; reflexivity).
    destruct (le_numb [2; 0] (sections v)) eqn:X; [|reflexivity].
    rewrite (le_numb_trans [1; 4] [2; 0] (sections v) eq_refl X) in E. discriminate.
Qed.

(* ... and it agrees with the selected table being a 2.x one *)
Theorem ge20_iff_2x_table v : le_numb [2; 0] v = is_2x (floor_module v).
Proof.
  rewrite floor_module_down. unfold supported_down, not_above. cbn [List.find fst].
  destruct (le_numb [2; 2] v) eqn:E22; [rewrite (le_numb_trans [2; 0] [2; 2] v eq_refl E22); reflexivity|].
  destruct (le_numb [2; 1] v) eqn:E21; [rewrite (le_numb_trans [2; 0] [2; 1] v eq_refl E21); reflexivity|].
  destruct (le_numb [2; 0] v), (le_numb [1; 5] v), (le_numb [1; 4] v); reflexivity.
Qed.

(* the same selection is applied to the version a node presents *)
Theorem node_same_rule (v : val) : node_const orc cont v = gateway_const orc cont v.
Proof.
  unfold node_const, gateway_const, sensor_set_version, sensor_setter.
  destruct (safe_is_version orc cont v); reflexivity.
Qed.

(* is_version's test on a value whose str() is not dotted numeric is the oracle's verdict *)
Lemma is_version_test_oracle (s : pstr) : dotted_numeric s = false ->
  eval_vtest orc is_version_test s [] =
  option_map (xorb (vt_neg is_version_test))
    (orc (vt_op is_version_test) (side_val (vt_l is_version_test) s []) (side_val (vt_r is_version_test) s [])).
Proof.
  intro Hd. unfold eval_vtest, av_cmp, is_version_test. cbn [vt_neg vt_op vt_l vt_r side_val].
  rewrite Hd, ?andb_false_r. cbn [andb]. reflexivity.
Qed.

(* a container word ("latest", "dev", "stable", "beta"), anything the library
   cannot compare, and anything it finds older than 1.4 falls back to 1.4 *)
Theorem nonnumeric_fallback (v : val) :
  dotted_numeric (py_str v) = false ->
  (cont (py_str v) = true
   \/ eval_vtest orc is_version_test (py_str v) [] = None
   \/ eval_vtest orc is_version_test (py_str v) [] = Some true) ->
  safe_is_version orc cont v = Ok (s2p "1.4")
  /\ gateway_const orc cont v = Ok fallback_module /\ node_const orc cont v = Ok fallback_module.
Proof.
  intros Hd Ho.
  assert (Hs : safe_is_version orc cont v = Ok (s2p "1.4")).
  { unfold safe_is_version, safe_is_version_with, is_version_with, is_container, is_version_rejects_container.
    rewrite Hd. cbn [negb andb].
    destruct (cont (py_str v)) eqn:Ec; [reflexivity|].
    destruct Ho as [Ho | [-> | ->]]; [discriminate| |]; reflexivity. }
  split; [exact Hs|]. rewrite node_same_rule. split; unfold gateway_const; rewrite Hs; cbn [bind];
    (rewrite get_const_floor by (vm_compute; reflexivity)); vm_compute; reflexivity.
Qed.

(* ... and anything else it accepts is kept as written *)
Theorem nonnumeric_accepted (v : val) :
  is_container cont (py_str v) = false ->
  eval_vtest orc is_version_test (py_str v) [] = Some false ->
  safe_is_version orc cont v = Ok (py_str v).
Proof.
  intros Hc Ho. unfold safe_is_version, safe_is_version_with, is_version_with.
  rewrite Hc, andb_false_r, Ho. reflexivity.
Qed.

End WithOracle.

(* ---- history (finding version/container-word, repaired by b5ee08d): awesomeversion's
   SpecialContainer words compare greater than every numeric version.  Before the
   fix is_version had no container test (is_version_with false): with the library's
   verdict on such a word (container_orc; the harness checks it against
   awesomeversion on every run) the digit-free string "dev" was kept and selected
   the 2.2 constants.  With the test the same oracle falls back to 1.4. *)
Definition container_orc (w : pstr) : avop -> pstr -> pstr -> option bool :=
  fun op l r =>
    if pstr_eqb l w then Some (match op with OpGt | OpGe | OpNe => true | _ => false end)
    else if pstr_eqb r w then Some (match op with OpLt | OpLe | OpNe => true | _ => false end)
    else None.

Lemma nonnumeric_fallback_unfixed_refuted :
  exists (orc : avop -> pstr -> pstr -> option bool) (cont : pstr -> bool) (v : val),
    dotted_numeric (py_str v) = false
    /\ forallb (fun c => negb (is_digit c)) (py_str v) = true
    /\ cont (py_str v) = true
    /\ safe_is_version_with orc cont false v = Ok (py_str v)
    /\ get_const orc (py_str v) = Ok (s2p "mysensors.const_22")
    /\ safe_is_version orc cont v = Ok (s2p "1.4").
Proof.
  exists (container_orc (s2p "dev")), (fun s => pstr_eqb s (s2p "dev")), (VStr (s2p "dev")).
  vm_compute. repeat split.
Qed.

(* ---- what counts as a dotted numeric string *)
Example sections_examples :
  sections (s2p "2.0.5") = [2; 0; 5] /\ sections (s2p "02.00") = [2; 0] /\ sections (s2p "2") = [2]
  /\ dotted_numeric (s2p "2.10.0.7") = true /\ dotted_numeric (s2p "2.") = false
  /\ dotted_numeric (s2p "2.0-beta") = false /\ dotted_numeric [] = false.
Proof. vm_compute. repeat split. Qed.
