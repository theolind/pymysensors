(* Smart sleep: what one step and whole histories do to a node, read off the transition relation
   of SleepTrans; the vocabulary of Props/C07.v and Props/C08.v. *)
From Coq Require Import List NArith ZArith Bool String Lia.
From PMS Require Import Base.PyStr Base.PyInt Base.Exn Model.Codec Model.Rules Model.TableTypes
  Gen.Tables Model.Validate Model.Hex Model.Ota Model.Oracles Model.Gateway Spec.SerialApi
  Proofs.PyStrFacts Proofs.PyIntFacts Proofs.CodecProofs Proofs.ValidateProofs Proofs.GwLemmas Proofs.GwInv
  Proofs.SleepDefs Proofs.SleepFlush Proofs.SleepTrans Proofs.SleepLife.
Import ListNotations.
Open Scope string_scope.
Open Scope list_scope.
Open Scope Z_scope.

Section Sleep.
  Variable orc : oracles.
  Variable clock : Z.

  (* no hold queue of any node grows unless the message is addressed to that very node and it sleeps *)
  Theorem others_not_delayed g m k nd : Inv orc g -> get_node g k = Some nd ->
    exists nd', get_node (fst (route g m)) k = Some nd' /\
      (nd' = nd \/ (k = m_node m /\ sleeping nd = true /\ nd' = with_queue nd (n_queue nd ++ [encode m]) /\
                    snd (route g m) = None)).
  Proof.
    intros I G. destruct (route_cases g m) as [(nd0 & G0 & SL & ->)|[-> _]]; [|exists nd; auto].
    cbn [fst snd]. rewrite get_node_put. cbn [with_queue n_id]. rewrite (IdInv_of_Inv orc g I _ _ G0).
    destruct (Z.eqb_spec k (m_node m)) as [->|N]; [|exists nd; auto].
    rewrite G0 in G. inversion G; subst nd0. eexists. split; [reflexivity|]. right. auto.
  Qed.

  (* the line is a wake-up announcement of node n, accepted by the gateway *)
  Definition is_wake_line (g : gw) (l : pstr) (n : Z) : Prop :=
    exists m, decode l = Some m /\ gvalidate orc g m = true /\ wake_msg (tab g) m = true /\ m_node m = n.

  Lemma line_cause_wake g l n : line_cause orc g l = CWake n <-> is_wake_line g l n.
  Proof.
    unfold line_cause, is_wake_line, msg_cause. split.
    - destruct (decode l) as [m|]; [|discriminate]. destruct (gvalidate orc g m) eqn:V; [|discriminate].
      destruct (wake_msg (tab g) m) eqn:W.
      + intro H. inversion H. exists m. repeat split; auto.
      + destruct (report_msg (tab g) m); discriminate.
    - intros (m & -> & -> & -> & <-). reflexivity.
  Qed.

  Lemma line_cause_report g l n c vt : cfg_ok (g_cf g) ->
    line_cause orc g l = CReport n c vt <->
    exists m, decode l = Some m /\ gvalidate orc g m = true /\
              m_type m = 1 /\ m_node m = n /\ m_child m = c /\ m_sub m = vt.
  Proof.
    intros [v [T _]]. unfold line_cause, msg_cause, report_msg, wake_msg, tab. rewrite T.
    assert (TS : forall m, is_hset (type_handler (tab_of v) (m_type m)) = (m_type m =? 1))
      by (intro; apply type_handler_set).
    split.
    - destruct (decode l) as [m|]; [|discriminate]. destruct (gvalidate orc g m) eqn:V; [|discriminate].
      destruct (wake_ts (tab_of v) (m_type m) (m_sub m)); [discriminate|]. specialize (TS m).
      destruct (type_handler (tab_of v) (m_type m)) as [[]|]; try discriminate.
      intro H. inversion H. exists m. symmetry in TS. apply Z.eqb_eq in TS. auto 10.
    - intros (m & -> & -> & TY & <- & <- & <-). specialize (TS m).
      rewrite wake_ts_spec. unfold wake_spec. rewrite TY in *.
      destruct (wake_sub v); destruct (type_handler (tab_of v) 1) as [[]|]; try discriminate TS; reflexivity.
  Qed.

  Lemma line_cause_not_desire g l n c vt : line_cause orc g l <> CDesire n c vt.
  Proof.
    unfold line_cause, msg_cause. destruct (decode l) as [m|]; [|discriminate].
    destruct (gvalidate orc g m); [|discriminate].
    destruct (wake_msg (tab g) m); [discriminate|]. destruct (report_msg (tab g) m); discriminate.
  Qed.

  (* what `allowed` says about a string, read from its header fields *)
  Lemma allowed_string g cz s : allowed g cz s ->
    forall n nd, line_node s = Some n -> get_node g n = Some nd -> sleeping nd = true ->
      line_type s = Some (vt_stream (tab g)) \/ cz = CWake n.
  Proof.
    intros (m & -> & H) n nd LN G SL. rewrite line_node_encode in LN. inversion LN; subst n.
    rewrite line_type_encode. destruct H as [H|[H|H]].
    - left. rewrite H. reflexivity.
    - right. exact H.
    - rewrite G, SL in H. discriminate.
  Qed.

  Lemma wake_dec (cz : cause) k : cz = CWake k \/ cz <> CWake k.
  Proof.
    destruct cz as [|n| |]; try (right; discriminate).
    destruct (Z.eq_dec n k) as [->|N]; [left; reflexivity|right; congruence].
  Qed.

  (* the line a step processes (asyncio: the arriving line; threaded: the queued line the pump pops) *)
  Definition processed (g : gw) (o : op) : option pstr :=
    match o with
    | Recv l => if cf_async (g_cf g) then Some l else None
    | Pump => match g_jobs g with JLogic l :: _ => Some l | _ => None end
    | _ => None
    end.

  Lemma op_cause_processed g o :
    op_cause orc g o =
    match processed g o, o with
    | Some l, _ => line_cause orc g l
    | None, SetChild s c vt _ _ _ => desire_cause s c vt
    | None, _ => CNone
    end.
  Proof.
    destruct o; cbn [op_cause processed]; try reflexivity.
    - destruct (cf_async (g_cf g)); reflexivity.
    - destruct (g_jobs g) as [|[l|l] r]; reflexivity.
  Qed.

  Lemma op_cause_wake g o n : op_cause orc g o = CWake n ->
    exists l, processed g o = Some l /\ is_wake_line g l n.
  Proof.
    rewrite op_cause_processed. destruct (processed g o) as [l|].
    - intro H. exists l. split; [reflexivity|]. apply line_cause_wake. exact H.
    - destruct o; try discriminate. unfold desire_cause. destruct (vt_int vt); discriminate.
  Qed.

  Theorem step_sends_to_sleeping_only_on_wake g o :
    cfg_ok (g_cf g) -> Inv orc g -> QInv g -> op_ok o ->
    let g' := step orc clock g o in
    exists d j, g_log g' = g_log g ++ d /\ g_jobs g' = jobs_base g o ++ j /\
      (* every string handed to the transport by this step *)
      (forall s, In (ESend s) d ->
         queued_send g o s \/
         forall n nd, line_node s = Some n -> get_node g n = Some nd -> sleeping nd = true ->
           line_type s = Some (vt_stream (tab g)) \/
           exists l, processed g o = Some l /\ is_wake_line g l n) /\
      (* every job queued by this step *)
      (forall x, In x j ->
         queued_line g o x \/
         exists s, x = JSend s /\
           forall n nd, line_node s = Some n -> get_node g n = Some nd -> sleeping nd = true ->
             line_type s = Some (vt_stream (tab g)) \/
             exists l, processed g o = Some l /\ is_wake_line g l n).
  Proof.
    intros C I Q O g'. destruct (step_strans orc clock g o C I Q O) as [_ (d & L & F) (j & J & G) _].
    assert (A : forall s, allowed g (op_cause orc g o) s ->
                forall n nd, line_node s = Some n -> get_node g n = Some nd -> sleeping nd = true ->
                  line_type s = Some (vt_stream (tab g)) \/ exists l, processed g o = Some l /\ is_wake_line g l n).
    { intros s AL n nd LN GN SL. destruct (allowed_string _ _ _ AL n nd LN GN SL) as [X|X]; [left; exact X|right].
      apply op_cause_wake. exact X. }
    exists d, j. split; [exact L|]. split; [exact J|]. split.
    - intros s IN. rewrite Forall_forall in F. destruct (F _ IN) as [AL|(s0 & E & QS)]; [right; apply A; exact AL|].
      left. inversion E; subst s0. exact QS.
    - intros x IN. rewrite Forall_forall in G. destruct (G _ IN) as [AL|QL]; [|left; exact QL].
      right. destruct x as [l0|s]; [contradiction|]. exists s. split; [reflexivity|apply A; exact AL].
  Qed.

  Lemma step_node g o k nd : cfg_ok (g_cf g) -> Inv orc g -> QInv g -> op_ok o -> get_node g k = Some nd ->
    exists nd', get_node (step orc clock g o) k = Some nd' /\ node_step (op_cause orc g o) k nd nd'.
  Proof. intros C I Q O G. exact (proj1 (s_nodes _ _ _ _ (step_strans orc clock g o C I Q O)) k nd G). Qed.

  Theorem release_only_on_wake g o k nd :
    cfg_ok (g_cf g) -> Inv orc g -> QInv g -> op_ok o -> get_node g k = Some nd ->
    exists nd', get_node (step orc clock g o) k = Some nd' /\
      ((exists ext, n_queue nd' = n_queue nd ++ ext) \/
       (exists l, processed g o = Some l /\ is_wake_line g l k)).
  Proof.
    intros C I Q O G. destruct (step_node g o k nd C I Q O G) as (nd' & G' & NS).
    exists nd'. split; [exact G'|]. destruct (wake_dec (op_cause orc g o) k) as [E|N].
    - right. apply op_cause_wake. exact E.
    - left. exact (proj2 (ns_calm NS N)).
  Qed.

  (* no step of the history has a cause in P *)
  Fixpoint quiet (P : cause -> Prop) (g : gw) (ops : list op) : Prop :=
    match ops with
    | [] => True
    | o :: r => ~ P (op_cause orc g o) /\ quiet P (step orc clock g o) r
    end.

  (* what is "reported": the child has a value of that type *)
  Definition has_reported (nd : node) (c vt : Z) : Prop :=
    exists ch, zassoc c (n_children nd) = Some ch /\ zhas vt (c_values ch) = true.

  Lemma run_node ops : forall g n nd,
    cfg_ok (g_cf g) -> Inv orc g -> QInv g -> Forall op_ok ops -> get_node g n = Some nd ->
    exists nd', get_node (run orc clock g ops) n = Some nd' /\
      (sleeping nd = true -> sleeping nd' = true) /\
      (forall c vt, has_reported nd c vt -> has_reported nd' c vt) /\
      (forall c, zhas c (n_children nd) = true -> zhas c (n_children nd') = true) /\
      (forall c vt, quiet (fun cz => cz = CReport n c vt \/ cz = CDesire n c vt) g ops ->
                    desired nd' c vt = desired nd c vt) /\
      (forall c vt, quiet (fun cz => cz = CDesire n c vt) g ops -> desired nd c vt = None ->
                    desired nd' c vt = None).
  Proof.
    induction ops as [|o ops IH]; intros g n nd C I Q F G.
    - exists nd. split; [exact G|]. repeat split; auto.
    - inversion F as [|? ? O F']; subst.
      destruct (step_good orc clock g o C I Q O) as (C1 & I1 & Q1).
      destruct (step_node g o n nd C I Q O G) as (nd1 & G1 & NS).
      pose proof (ns_desired NS) as D1. pose proof (ns_kids NS) as K1.
      destruct (IH _ n nd1 C1 I1 Q1 F' G1) as (nd' & G' & S' & R' & Z' & DA & DB).
      exists nd'. split; [exact G'|]. split; [intro S; exact (S' (ns_sleeps NS S))|]. split; [|split; [|split]].
      + intros c vt (ch & CH & ZV). apply R'. destruct (K1 _ _ CH) as (ch1 & CH1 & _ & V1). exists ch1. auto.
      + intros c ZH. apply Z'. unfold zhas in *. destruct (zassoc c (n_children nd)) as [ch|] eqn:CH; [|discriminate].
        destruct (K1 _ _ CH) as (ch1 & CH1 & _). rewrite CH1. reflexivity.
      + intros c vt [NP QQ]. rewrite (DA c vt QQ).
        destruct (D1 c vt) as [_ X]; [intro E; apply NP; right; exact E|].
        apply X. intro E; apply NP; left; exact E.
      + intros c vt [NP QQ] DN. apply (DB c vt QQ).
        destruct (D1 c vt NP) as [[X|X] _]; [rewrite X; exact DN|exact X].
  Qed.

  Lemma desired_in_flush t nd c vt v : kids_ok nd -> has_reported nd c vt -> desired nd c vt = Some v ->
    In (encode (set_msg_of t (n_id nd) c vt v)) (flush_strings t nd).
  Proof.
    intros KO (ch & CH & ZV) D. unfold flush_strings, desired_sets. apply in_or_app. right.
    apply in_map. apply In_desired_msgs.
    apply zhas_true in ZV as [x ZX].
    exists c, ch, vt, x, v. pose proof (KO _ _ CH) as KC. rewrite KC.
    split; [apply zassoc_In; exact CH|]. split; [apply zassoc_In; exact ZX|].
    split; [rewrite init_desired; exact D|reflexivity].
  Qed.

  (* every set command of a flush is a pending desired value of a reported value type *)
  Lemma flush_sets_are_desired t nd m : In m (desired_msgs t (init_smart_sleep nd)) ->
    exists v, desired nd (m_child m) (m_sub m) = Some v /\ m = set_msg_of t (n_id nd) (m_child m) (m_sub m) v.
  Proof.
    intro H. apply In_desired_msgs in H as (k & ch & vt & x & v & _ & _ & D & ->).
    rewrite init_desired in D. exists v. split; [exact D|reflexivity].
  Qed.

  (* (b): an accepted report from (n, c, vt), through the dispatcher: the entry is cleared, the value
     type counts as reported, no other desired value is touched.  Closed form of handle_set, then
     only the reply is routed and sent. *)
  Lemma logic_report g l n c vt nd g1 reply : cfg_ok (g_cf g) -> Inv orc g ->
    line_cause orc g l = CReport n c vt -> get_node g n = Some nd -> zhas c (n_children nd) = true ->
    logic orc clock g l = Ok (g1, reply) ->
    exists nd', get_node (finish g1 reply) n = Some nd' /\ desired nd' c vt = None /\
                has_reported nd' c vt /\
                (forall c' vt', (c', vt') <> (c, vt) -> desired nd' c' vt' = desired nd c' vt').
  Proof.
    intros C I LC G ZH E. pose proof (facts_of_cfg g C) as F.
    apply (line_cause_report g l n c vt C) in LC as (m & D & V & TY & <- & <- & <-).
    destruct (type_handler_cases g 1 F eq_refl) as [[E1 _]|[[_ TH]|[[E1 _]|[[E1 _]|[E1 _]]]]]; try discriminate E1.
    rewrite <- TY in TH.
    rewrite (logic_handler orc clock g l m HSet D V TH) in E. unfold run_handler in E.
    destruct (handle_set_known g m nd G ZH (decoded_payload_wire_ok _ _ D) (facts_reboot g F)) as (rep & HS & _).
    pose proof (handle_set_trans orc g m F I _ _ HS) as T.
    rewrite HS in E. cbn [bind] in E.
    set (ndu := update_child_value nd (m_child m) (m_sub m) (m_payload m)) in *.
    set (gu := alert (put_node g ndu) m) in *.
    destruct (update_child_value_facts nd (m_child m) (m_sub m) (m_payload m) ZH) as (DN & DO & RP & _ & IDU & _).
    fold ndu in DN, DO, RP, IDU.
    assert (GU : get_node gu (m_node m) = Some ndu).
    { unfold gu, get_node. rewrite (proj1 (alert_frame (put_node g ndu) m)). fold (get_node (put_node g ndu) (m_node m)).
      rewrite get_node_put, IDU, (IdInv_of_Inv orc g I _ _ G), Z.eqb_refl. reflexivity. }
    assert (TR : nodes_step CNone gu (finish g1 reply)).
    { destruct rep as [mr|]; cbn [route_opt] in E; [|inversion E; apply nodes_step_eq; reflexivity].
      destruct (route_trans CNone gu mr (nodes_step_IdInv _ _ _ (t_nodes _ _ _ T) (IdInv_of_Inv orc g I))) as [T2 _].
      destruct (route gu mr) as [g2 routed]. inversion E; subst g1 reply.
      destruct routed as [m'|]; cbn [option_map finish]; [|exact (t_nodes _ _ _ T2)].
      eapply nodes_step_trans; [exact (t_nodes _ _ _ T2)|]. apply nodes_step_eq. apply send_frame. }
    destruct (proj1 TR _ _ GU) as (nd' & G' & NS). exists nd'. split; [exact G'|].
    assert (DS : forall c' vt', desired nd' c' vt' = desired ndu c' vt').
    { intros c' vt'. destruct (ns_desired NS c' vt') as [_ X]; [discriminate|]. apply X. discriminate. }
    split; [rewrite DS; exact DN|]. split; [|intros c' vt' N; rewrite DS; apply DO; exact N].
    unfold reported in RP. destruct (zassoc (m_child m) (n_children ndu)) as [chu|] eqn:CHU; [|discriminate].
    destruct (ns_kids NS _ _ CHU) as (ch' & CH' & _ & VV). exists ch'. split; [exact CH'|]. apply VV.
    unfold zhas. rewrite RP. reflexivity.
  Qed.

  (* in every state reached from one that satisfies the invariants the flush of every node succeeds
     and every line is processed without raising *)
  Theorem run_deliverable g ops : cfg_ok (g_cf g) -> Inv orc g -> QInv g -> Forall op_ok ops ->
    let g2 := run orc clock g ops in
    (forall k nd, get_node g2 k = Some nd -> handle_smartsleep orc g2 nd = Ok (flushed g2 nd)) /\
    (forall l, exists g3 r, logic orc clock g2 l = Ok (g3, r)).
  Proof.
    intros C I Q F g2. destruct (run_sleep_inv orc clock ops g C I Q F) as (I2 & Q2 & C2 & _). fold g2 in I2, Q2, C2.
    split; [intros k nd G; apply (flush_spec orc g2 k); assumption|].
    intro l. rewrite <- C2 in C. destruct (logic_total orc clock g2 l C I2) as (g3 & r & E3 & _). eauto.
  Qed.

  (* ... and it stays cleared - no set command for (c, vt) in any later flush - until a new
     set_child_value for (n, c, vt) *)
  Theorem cleared_until_new_desire g n c vt nd ops :
    cfg_ok (g_cf g) -> Inv orc g -> QInv g -> Forall op_ok ops ->
    get_node g n = Some nd -> desired nd c vt = None ->
    quiet (fun cz => cz = CDesire n c vt) g ops ->
    let g2 := run orc clock g ops in
    exists nd2, get_node g2 n = Some nd2 /\ desired nd2 c vt = None /\
      handle_smartsleep orc g2 nd2 = Ok (flushed g2 nd2) /\
      forall m, In m (desired_msgs (tab g2) (init_smart_sleep nd2)) -> ~ (m_child m = c /\ m_sub m = vt).
  Proof.
    intros C I Q F G D QU g2.
    destruct (run_node ops g n nd C I Q F G) as (nd2 & G2 & _ & _ & _ & _ & DB).
    exists nd2. split; [exact G2|]. pose proof (DB c vt QU D) as D2. split; [exact D2|]. split.
    - exact (proj1 (run_deliverable g ops C I Q F) n nd2 G2).
    - intros m H [E1 E2]. destruct (flush_sets_are_desired _ nd2 m H) as (v & DV & _). congruence.
  Qed.

  (* whatever was accepted, the flush of every node in every later state succeeds; the node's own
     protocol version (n_pver: equal / older / never presented) plays no role *)
  Theorem accepted_implies_deliverable g sid cid vt v mt a g1 ops :
    cfg_ok (g_cf g) -> Inv orc g -> QInv g -> Forall op_ok ops ->
    set_child_value orc g sid cid vt v mt a = Ok g1 ->
    let g2 := run orc clock g1 ops in
    (forall k nd, get_node g2 k = Some nd -> handle_smartsleep orc g2 nd = Ok (flushed g2 nd)) /\
    (forall l, exists g3 r, logic orc clock g2 l = Ok (g3, r)).
  Proof.
    intros C I Q F E. pose proof (facts_of_cfg g C) as FA.
    pose proof (set_child_value_ok orc g sid cid vt v mt a FA I) as OK1. rewrite E in OK1. destruct OK1 as [I1 C1].
    pose proof (set_child_value_trans orc g sid cid vt v mt a g1 FA I E) as T1.
    apply run_deliverable; [rewrite C1; exact C|exact I1| |exact F].
    exact (nodes_step_QInv _ _ _ (t_nodes _ _ _ T1) Q).
  Qed.

  (* erasable ghost: for every job in the queue, the state and the cause of the step that queued it *)
  Definition origin := (gw * cause)%type.
  Definition step_ghost (gs : gw * list origin) (o : op) : gw * list origin :=
    let g := fst gs in
    let g' := step orc clock g o in
    (g', (match o with Pump => tl (snd gs) | _ => snd gs end) ++
         repeat (g, op_cause orc g o) (List.length (g_jobs g') - List.length (jobs_base g o))).
  Definition run_ghost (gs : gw * list origin) (ops : list op) : gw * list origin := fold_left step_ghost ops gs.

  Lemma run_ghost_erase ops : forall gs, fst (run_ghost gs ops) = run orc clock (fst gs) ops.
  Proof. induction ops as [|o ops IH]; intro gs; [reflexivity|]. simpl. rewrite IH. reflexivity. Qed.

  Definition job_origin_ok (x : job) (og : origin) : Prop :=
    match x with JSend s => allowed (fst og) (snd og) s | JLogic _ => True end.
  Definition ghost_ok (gs : gw * list origin) : Prop := Forall2 job_origin_ok (g_jobs (fst gs)) (snd gs).

  Lemma Forall2_tl {A B} (R : A -> B -> Prop) l1 l2 : Forall2 R l1 l2 -> Forall2 R (tl l1) (tl l2).
  Proof. intros [|a b l1' l2' H F]; [constructor|exact F]. Qed.

  Lemma Forall2_weaken {A B} (R S : A -> B -> Prop) l1 l2 :
    (forall a b, R a b -> S a b) -> Forall2 R l1 l2 -> Forall2 S l1 l2.
  Proof. intros H F. induction F; constructor; auto. Qed.

  Lemma Forall2_repeat {A B} (R : A -> B -> Prop) l b : Forall (fun a => R a b) l -> Forall2 R l (repeat b (List.length l)).
  Proof. induction 1; simpl; constructor; assumption. Qed.

  Lemma run_ghost_ok ops : forall gs, cfg_ok (g_cf (fst gs)) -> Inv orc (fst gs) -> QInv (fst gs) ->
    Forall op_ok ops -> ghost_ok gs -> ghost_ok (run_ghost gs ops).
  Proof.
    induction ops as [|o ops IH]; intros [g og] C I Q F GH; [exact GH|]. cbn [fst] in C, I, Q.
    inversion F as [|? ? O F']; subst. destruct (step_good orc clock g o C I Q O) as (C1 & I1 & Q1).
    apply (IH (step_ghost (g, og) o)); try assumption.
    (* the jobs this step queued get its state and cause as their origin *)
    unfold ghost_ok, step_ghost in *. cbn [fst snd] in *.
    destruct (step_strans orc clock g o C I Q O) as [_ _ (j & J & G) _]. rewrite J.
    rewrite app_length, Nat.add_comm, Nat.add_sub. apply Forall2_app.
    - unfold jobs_base. destruct o; try exact GH. apply Forall2_tl. exact GH.
    - apply Forall2_repeat. revert G. apply Forall_impl.
      intros [l|s] [H|H]; simpl; auto. destruct H as (l0 & _ & _ & H). discriminate H.
  Qed.
End Sleep.
