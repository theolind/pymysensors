(* C10: the OTA session stores of Model/Gateway.v refine the reference automaton of
   Spec/OtaSession.v; reboot window; malformed requests.  The definitions the C10 statements
   use stand here, each before the lemmas about it.  What a handler outside the firmware session
   does is `foot`; what any line / any step does to every session and flag is logic_footprint /
   step_footprint; what a reply line can be is reply_cases; the update call is update_fw_eq. *)
From Coq Require Import List NArith ZArith Bool String Lia.
From PMS Require Import Base.PyStr Base.PyInt Base.Exn Model.Codec Model.Rules Model.TableTypes
  Gen.Tables Model.Validate Model.Hex Model.Ota Model.Oracles Model.Gateway Spec.SerialApi
  Spec.OtaSession
  Proofs.PyStrFacts Proofs.CodecProofs Proofs.ValidateProofs Proofs.GwLemmas Proofs.HexProofs
  Proofs.OtaProofs Proofs.GwInv.
Import ListNotations.
Open Scope string_scope.
Open Scope list_scope.
Open Scope Z_scope.

(* the keys of a Python dict are unique *)
Definition keys_nodup {A} (l : list (Z * A)) : Prop := NoDup (map fst l).

Lemma zhas_zassoc {A} k (l : list (Z * A)) : zhas k l = true <-> zassoc k l <> None.
Proof. rewrite zhas_assoc. destruct (zassoc k l); split; congruence. Qed.

Definition store := list (Z * (Z * Z)).

(* which store holds the node (priority only matters outside the invariant) *)
Definition abs (o : ota) (n : Z) : session :=
  match zassoc n (o_requested o) with
  | Some k => Requested k
  | None =>
      match zassoc n (o_unstarted o) with
      | Some k => Offered k
      | None => match zassoc n (o_started o) with Some k => Fetching k | None => Idle end
      end
  end.

Definition excl (o : ota) : Prop := forall n,
  (zassoc n (o_requested o) = None \/ zassoc n (o_unstarted o) = None) /\
  (zassoc n (o_requested o) = None \/ zassoc n (o_started o) = None) /\
  (zassoc n (o_unstarted o) = None \/ zassoc n (o_started o) = None).

Definition sess_inv (o : ota) : Prop :=
  keys_nodup (o_requested o) /\ keys_nodup (o_unstarted o) /\ keys_nodup (o_started o) /\ excl o.

Lemma sess_inv_init : sess_inv ota_init.
Proof. repeat split; try apply NoDup_nil; left; reflexivity. Qed.

Lemma sess_inv_at o o' n : sess_inv o ->
  keys_nodup (o_requested o') -> keys_nodup (o_unstarted o') -> keys_nodup (o_started o') ->
  (forall m, m <> n -> zassoc m (o_requested o') = zassoc m (o_requested o) /\
                       zassoc m (o_unstarted o') = zassoc m (o_unstarted o) /\
                       zassoc m (o_started o') = zassoc m (o_started o)) ->
  (zassoc n (o_requested o') = None /\ zassoc n (o_unstarted o') = None \/
   zassoc n (o_requested o') = None /\ zassoc n (o_started o') = None \/
   zassoc n (o_unstarted o') = None /\ zassoc n (o_started o') = None) ->
  sess_inv o' /\ forall m, m <> n -> abs o' m = abs o m.
Proof.
  intros (_ & _ & _ & E) N1 N2 N3 OT AT. split.
  - repeat (split; [assumption|]). intro m. destruct (Z.eq_dec m n) as [->|D]; [tauto|].
    destruct (OT m D) as (-> & -> & ->). apply E.
  - intros m D. destruct (OT m D) as (A & B & C). unfold abs. rewrite A, B, C. reflexivity.
Qed.

(* the pop / re-insert of OTAFirmware._get_fw over two stores *)
Definition found_of (nid : Z) (s1 s2 : store) : option ((Z * Z) * store * store) :=
  match zassoc nid s1 with
  | Some id => Some (id, zdel nid s1, zset nid id s2)
  | None => match zassoc nid s2 with
            | Some id => Some (id, s1, zset nid id (zdel nid s2))
            | None => None
            end
  end.

Lemma found_of_spec n s1 s2 :
  keys_nodup s1 -> keys_nodup s2 -> (zassoc n s1 = None \/ zassoc n s2 = None) ->
  match found_of n s1 s2 with
  | None => zassoc n s1 = None /\ zassoc n s2 = None
  | Some (id, s1', s2') =>
      (zassoc n s1 = Some id \/ (zassoc n s1 = None /\ zassoc n s2 = Some id)) /\
      zassoc n s1' = None /\ zassoc n s2' = Some id /\
      (forall m, m <> n -> zassoc m s1' = zassoc m s1 /\ zassoc m s2' = zassoc m s2) /\
      keys_nodup s1' /\ keys_nodup s2'
  end.
Proof.
  intros N1 N2 X. unfold found_of.
  destruct (zassoc n s1) as [id|] eqn:E1.
  - split; [left; reflexivity|]. split; [apply zassoc_zdel_same; exact N1|].
    split; [apply zassoc_zset_same|]. split.
    + intros m D. split; [apply zassoc_zdel_other; congruence|apply zassoc_zset_other; congruence].
    + split; [apply NoDup_zdel; exact N1|apply NoDup_zset; exact N2].
  - destruct (zassoc n s2) as [id|] eqn:E2; [|tauto].
    split; [right; tauto|]. split; [exact E1|]. split; [apply zassoc_zset_same|]. split.
    + intros m D. split; [reflexivity|].
      rewrite zassoc_zset_other by congruence. apply zassoc_zdel_other; congruence.
    + split; [exact N1|apply NoDup_zset; apply NoDup_zdel; exact N2].
Qed.

(* ota_get_fw is that operation on the pair of stores `first` selects, and a look-up of the image *)
Lemma ota_get_fw_unfold o nid first req :
  ota_get_fw o nid first req =
  match found_of nid (if first then o_requested o else o_unstarted o)
                     (if first then o_unstarted o else o_started o) with
  | None => (o, None)
  | Some (id, s1', s2') =>
      let o' := if first then mkOta (o_fw o) s1' s2' (o_started o)
                else mkOta (o_fw o) (o_requested o) s1' s2' in
      let '(t, v) := match req with Some r => r | None => id end in
      (o', option_map (fun f => (t, v, f)) (fw_lookup t v (o_fw o)))
  end.
Proof.
  unfold ota_get_fw, found_of. destruct first; cbv beta iota zeta.
  all: destruct (zassoc nid _) as [id|]; [|destruct (zassoc nid _) as [id|]; [|reflexivity]].
  all: destruct (match req with Some r => r | None => id end) as [t v];
       destruct (fw_lookup t v (o_fw o)); reflexivity.
Qed.

(* how the two request handlers call ota_get_fw: on (requested, unstarted) with the scheduled
   key for a config request, on (unstarted, started) with the requested key for a block request *)
Definition get_fw_args (i : sin) : option (bool * option fwkey) :=
  match i with
  | CfgReq => Some (true, None)
  | BlkReq k _ => Some (false, Some k)
  | _ => None
  end.

(* called so, the store operation simulates the automaton on that request *)
Lemma ota_get_fw_sim o n i first req : sess_inv o -> get_fw_args i = Some (first, req) ->
  let r := ota_get_fw o n first req in
  sess_inv (fst r) /\ o_fw (fst r) = o_fw o /\
  abs (fst r) n = fst (sstep (abs o n) i) /\
  (forall m, m <> n -> abs (fst r) m = abs o m) /\
  snd r = match snd (sstep (abs o n) i) with
          | NoOut => None
          | CfgResp (t, v) | BlkResp (t, v) _ => option_map (fun f => (t, v, f)) (fw_lookup t v (o_fw o))
          end.
Proof.
  intros SI A r. subst r. pose proof SI as (N1 & N2 & N3 & E). destruct (E n) as (X12 & X13 & X23).
  destruct i as [k| |[rt rv] b|]; inversion A; subst first req; rewrite ota_get_fw_unfold.
  - pose proof (found_of_spec n _ _ N1 N2 X12) as F.
    destruct (found_of n (o_requested o) (o_unstarted o)) as [[[[t v] s1'] s2']|].
    + destruct F as (W & A1 & A2 & OT & M1 & M2). cbv zeta. cbn [fst snd o_fw].
      assert (S3 : zassoc n (o_started o) = None)
        by (destruct W as [W|[_ W]]; [destruct X13|destruct X23]; congruence).
      assert (AB : abs o n = Requested (t, v) \/ abs o n = Offered (t, v))
        by (unfold abs; destruct W as [W|[W1 W2]]; [rewrite W|rewrite W1, W2]; auto).
      destruct (sess_inv_at o (mkOta (o_fw o) s1' s2' (o_started o)) n SI M1 M2 N3) as [SI' OT'];
        [intros m D; destruct (OT m D); auto|cbn; auto|].
      split; [exact SI'|]. split; [reflexivity|]. split; [|split; [exact OT'|]].
      * unfold abs at 1. cbn [o_requested o_unstarted]. rewrite A1, A2. destruct AB as [-> | ->]; reflexivity.
      * destruct AB as [-> | ->]; reflexivity.
    + destruct F as [F1 F2]. cbn [fst snd].
      assert (AB : abs o n = Idle \/ exists k, abs o n = Fetching k)
        by (unfold abs; rewrite F1, F2; destruct (zassoc n (o_started o)); eauto).
      split; [exact SI|]. split; [reflexivity|].
      split; [|split; [reflexivity|]]; destruct AB as [-> |[k ->]]; reflexivity.
  - pose proof (found_of_spec n _ _ N2 N3 X23) as F.
    destruct (found_of n (o_unstarted o) (o_started o)) as [[[id s1'] s2']|].
    + destruct F as (W & A1 & A2 & OT & M1 & M2). cbv zeta. cbn [fst snd o_fw].
      assert (S3 : zassoc n (o_requested o) = None)
        by (destruct W as [W|[_ W]]; [destruct X12|destruct X13]; congruence).
      assert (AB : abs o n = Offered id \/ abs o n = Fetching id)
        by (unfold abs; rewrite S3; destruct W as [W|[W1 W2]]; [rewrite W|rewrite W1, W2]; auto).
      destruct (sess_inv_at o (mkOta (o_fw o) (o_requested o) s1' s2') n SI N1 M1 M2) as [SI' OT'];
        [intros m D; destruct (OT m D); auto|cbn; auto|].
      split; [exact SI'|]. split; [reflexivity|]. split; [|split; [exact OT'|]].
      * unfold abs at 1. cbn [o_requested o_unstarted o_started]. rewrite S3, A1, A2.
        destruct AB as [-> | ->]; reflexivity.
      * destruct AB as [-> | ->]; reflexivity.
    + destruct F as [F1 F2]. cbn [fst snd].
      assert (AB : abs o n = Idle \/ exists k, abs o n = Requested k)
        by (unfold abs; rewrite F1, F2; destruct (zassoc n (o_requested o)); eauto).
      split; [exact SI|]. split; [reflexivity|].
      split; [|split; [reflexivity|]]; destruct AB as [-> |[k ->]]; reflexivity.
Qed.

Definition known (g : gw) (n : Z) : bool := zhas n (g_sensors g).
Definition reboot_flag (g : gw) (n : Z) : bool :=
  match get_node g n with Some nd => n_reboot nd | None => false end.
Definition ids_ok (g : gw) : Prop := Forall (fun kn => n_id (snd kn) = fst kn) (g_sensors g).

Lemma known_get g n : known g n = true <-> exists nd, get_node g n = Some nd.
Proof.
  unfold known, zhas, get_node. destruct (zassoc n (g_sensors g)) as [nd|].
  - split; [eauto|reflexivity].
  - split; [discriminate|intros [nd H]; discriminate].
Qed.
Lemma known_false g n : known g n = false <-> get_node g n = None.
Proof. unfold known, zhas, get_node. destruct (zassoc n (g_sensors g)); split; congruence. Qed.

Lemma ids_ok_get g k nd : ids_ok g -> get_node g k = Some nd -> n_id nd = k.
Proof. intros I G. exact (zassoc_Forall _ _ _ _ I G). Qed.

Lemma ids_ok_put g nd : ids_ok g -> ids_ok (put_node g nd).
Proof. intro I. unfold ids_ok, put_node. cbn [g_sensors set_sensors]. apply Forall_zset; [exact I|reflexivity]. Qed.

Lemma Inv_ids_ok orc g : Inv orc g -> ids_ok g.
Proof.
  intros [S _]. unfold ids_ok. rewrite Forall_forall in *. intros kn I. destruct (S kn I) as [K _]. exact K.
Qed.

Definition nframe (g g' : gw) : Prop :=
  g_cf g' = g_cf g /\
  (forall n, known g n = true -> known g' n = true) /\
  (ids_ok g -> ids_ok g' /\ forall n, reboot_flag g' n = reboot_flag g n).
Definition frame (g g' : gw) : Prop := g_ota g' = g_ota g /\ nframe g g'.

Lemma nframe_same g g' : g_sensors g' = g_sensors g -> g_cf g' = g_cf g -> nframe g g'.
Proof.
  intros S C. split; [exact C|]. unfold known, ids_ok, reboot_flag, get_node. rewrite S.
  split; [auto|]. intro I. split; [exact I|reflexivity].
Qed.
Lemma frame_same g g' : g_sensors g' = g_sensors g -> g_cf g' = g_cf g -> g_ota g' = g_ota g -> frame g g'.
Proof. intros S C O. split; [exact O|apply nframe_same; assumption]. Qed.

Lemma frame_refl g : frame g g.
Proof. apply frame_same; reflexivity. Qed.

Lemma frame_trans g1 g2 g3 : frame g1 g2 -> frame g2 g3 -> frame g1 g3.
Proof.
  intros (O1 & C1 & K1 & F1) (O2 & C2 & K2 & F2). split; [congruence|]. split; [congruence|]. split; [auto|].
  intro I. destruct (F1 I) as [I2 R1]. destruct (F2 I2) as [I3 R2]. split; [exact I3|].
  intro n. rewrite R2. apply R1.
Qed.

Lemma frame_send g l : frame g (send g l).
Proof. destruct (send_frame g l) as (A&B&C&_). apply frame_same; assumption. Qed.
Lemma frame_add_job g l : frame g (add_job_send g l).
Proof. destruct (add_job_send_frame g l) as (A&B&C&_). apply frame_same; assumption. Qed.
Lemma frame_fold_add_job ls g : frame g (fold_left add_job_send ls g).
Proof. destruct (fold_add_job_send_frame ls g) as (A&B&C&_). apply frame_same; assumption. Qed.
Lemma frame_alert g m : frame g (alert g m).
Proof. destruct (alert_frame g m) as (A&B&C&_). apply frame_same; assumption. Qed.
Lemma frame_emit g e : frame g (emit g e).
Proof. apply frame_same; reflexivity. Qed.
Lemma frame_set_jobs g j : frame g (set_jobs g j).
Proof. apply frame_same; reflexivity. Qed.
Lemma frame_set_metric g b : frame g (set_metric g b).
Proof. apply frame_same; reflexivity. Qed.
Lemma nframe_set_ota g o : nframe g (set_ota g o).
Proof. apply nframe_same; reflexivity. Qed.

Lemma frame_put g k nd nd' :
  get_node g k = Some nd -> n_id nd' = n_id nd -> n_reboot nd' = n_reboot nd -> frame g (put_node g nd').
Proof.
  intros G E1 E2. split; [reflexivity|]. split; [reflexivity|]. split.
  - intros n K. apply known_get in K as [x K]. apply known_get. rewrite get_node_put.
    destruct (n =? n_id nd'); eauto.
  - intro I. split; [apply ids_ok_put; exact I|]. intro n. unfold reboot_flag. rewrite get_node_put.
    pose proof (ids_ok_get g k nd I G) as K.
    destruct (Z.eqb_spec n (n_id nd')) as [->|D]; [|reflexivity].
    rewrite E1, K, G. exact E2.
Qed.

Lemma frame_add_sensor g sid : frame g (add_sensor g sid).
Proof.
  unfold add_sensor. destruct (zhas sid (g_sensors g)) eqn:H; [apply frame_refl|].
  split; [reflexivity|]. split; [reflexivity|].
  assert (GN : forall n, get_node (set_sensors g (g_sensors g ++ [(sid, new_node sid)])) n =
                         match get_node g n with Some a => Some a
                         | None => if n =? sid then Some (new_node sid) else None end).
  { intro n. unfold get_node. cbn [g_sensors set_sensors]. rewrite zassoc_app. simpl. reflexivity. }
  split.
  - intros n K. apply known_get in K as [x K]. apply known_get. rewrite GN, K. eauto.
  - intro I. split.
    + unfold ids_ok. cbn [g_sensors set_sensors]. apply Forall_app. split; [exact I|].
      constructor; [reflexivity|constructor].
    + intro n. unfold reboot_flag. rewrite GN. destruct (get_node g n); [reflexivity|].
      destruct (n =? sid); reflexivity.
Qed.

Lemma frame_route g m : frame g (fst (route g m)).
Proof.
  unfold route. destruct (m_type m =? vt_presentation (tab g)); [apply frame_refl|].
  destruct (get_node g (m_node m)) as [nd|] eqn:G; [|apply frame_refl].
  destruct ((m_type m =? vt_stream (tab g)) || negb (sleeping nd)); [apply frame_refl|].
  cbn [fst]. eapply frame_put; [exact G|reflexivity|reflexivity].
Qed.
Lemma frame_route_opt g r : frame g (fst (route_opt g r)).
Proof. destruct r; simpl; [apply frame_route|apply frame_refl]. Qed.

Lemma is_sensor_spec g sid cid g1 b : is_sensor g sid cid = Ok (g1, b) ->
  frame g g1 /\
  (b = true -> g1 = g /\ exists nd, get_node g sid = Some nd /\
                          forall c, cid = Some c -> zhas c (n_children nd) = true).
Proof.
  unfold is_sensor.
  set (ret := match get_node g sid with
              | Some nd => match cid with Some c => zhas c (n_children nd) | None => true end
              | None => false end).
  destruct ret eqn:R; cbn [negb andb].
  - intro H; inversion H; subst g1 b. split; [apply frame_refl|]. intros _. split; [reflexivity|].
    subst ret. destruct (get_node g sid) as [nd|]; [|discriminate].
    exists nd. split; [reflexivity|]. intros c ->. exact R.
  - destruct (node_id_ok sid && cf_ge20 (g_cf g));
      [|intro H; inversion H; split; [apply frame_refl|discriminate]].
    destruct (sassoc (s2p "I_PRESENTATION") (vt_internal_members (tab g))) as [ip|]; [|discriminate].
    pose proof (frame_route g (mkMsg sid system_child_id (vt_internal (tab g)) 0 ip [])) as FR.
    destruct (route g _) as [g' r]. cbn [fst] in FR. intro H; inversion H; subst. split; [|discriminate].
    destruct r; [eapply frame_trans; [exact FR|apply frame_add_job]|exact FR].
Qed.

Lemma is_sensor_false g sid cid g1 : is_sensor g sid cid = Ok (g1, false) ->
  match get_node g sid with
  | Some nd => exists c, cid = Some c /\ zhas c (n_children nd) = false
  | None => True
  end.
Proof.
  unfold is_sensor. destruct (get_node g sid) as [nd|]; [|trivial].
  destruct cid as [c|].
  - destruct (zhas c (n_children nd)) eqn:Z; [simpl; intro H; inversion H|eauto].
  - simpl. intro H; inversion H.
Qed.

Lemma frame_put_alert g k nd nd' m :
  get_node g k = Some nd -> n_id nd' = n_id nd -> n_reboot nd' = n_reboot nd -> frame g (alert (put_node g nd') m).
Proof. intros G E1 E2. eapply frame_trans; [eapply frame_put; eassumption|apply frame_alert]. Qed.

Lemma update_child_value_fields nd c vt v :
  n_id (update_child_value nd c vt v) = n_id nd /\ n_reboot (update_child_value nd c vt v) = n_reboot nd /\
  sleeping (update_child_value nd c vt v) = sleeping nd.
Proof.
  unfold update_child_value. destruct (zassoc c (n_children nd)) as [ch|]; [|auto].
  destruct (zassoc c (n_new nd)) as [dv|] eqn:D; [|auto].
  split; [reflexivity|]. split; [reflexivity|].
  unfold sleeping. cbn [n_new with_new with_children]. destruct (n_new nd) as [|[k a] r]; [discriminate D|].
  simpl. destruct (c =? k); reflexivity.
Qed.

Section Handlers.
  Variable orc : oracles.
  Variable clock : Z.

  Definition is_fw_leaf (h : hfun) : bool := match h with HFwConfigReq | HFwReq => true | _ => false end.

  (* The footprint of a handler outside the firmware session on message m: the OTA state, node
     ids and reboot flags stay, and a reply has the type of m, or is an internal or a set message.
     A reply is a copy of m, and copy re-decodes m: its type is known when m came off the wire. *)
  Definition rtype_ok (g : gw) (m x : msg) : Prop :=
    m_type x = m_type m \/ m_type x = vt_internal (tab g) \/ m_type x = vt_set (tab g).
  Definition foot (g : gw) (m : msg) (rs : res (gw * option msg)) : Prop :=
    forall g' r, rs = Ok (g', r) ->
      frame g g' /\ (wire_ok (m_payload m) = true -> forall x, r = Some x -> rtype_ok g m x).

  Lemma foot_ok g m g' r : frame g g' -> (forall x, r = Some x -> rtype_ok g m x) -> foot g m (Ok (g', r)).
  Proof. intros F T g1 r1 H. inversion H; subst. split; [exact F|auto]. Qed.

  Lemma foot_none g m g' : frame g g' -> foot g m (Ok (g', None)).
  Proof. intro F. apply foot_ok; [exact F|discriminate]. Qed.

  Lemma foot_bind {A} g m (a : res A) k : (forall x, a = Ok x -> foot g m (k x)) -> foot g m (do x <- a; k x).
  Proof. intro H. destruct a as [x|e]; [apply H; reflexivity|discriminate]. Qed.

  Lemma foot_copy g m g' rp : frame g g' ->
    (let t := ov (r_type rp) (m_type m) in t = m_type m \/ t = vt_internal (tab g) \/ t = vt_set (tab g)) ->
    foot g m (do x <- copy m rp; Ok (g', Some x)).
  Proof.
    intros F T g1 r H. destruct (copy m rp) as [x|] eqn:E; [|discriminate]. inversion H; subst. split; [exact F|].
    intros W y Y. inversion Y; subst y. rewrite (copy_spec _ _ W) in E. inversion E; subst x. exact T.
  Qed.

  (* the guard most handlers start with; a positive verdict leaves the state alone *)
  Lemma foot_guard g m n cid (body : gw -> node -> res (gw * option msg)) :
    (forall nd, get_node g n = Some nd -> foot g m (body g nd)) ->
    foot g m (do gr <- is_sensor g n cid;
              let '(g1, b) := gr in
              if negb b then Ok (g1, None)
              else match get_node g1 n with None => Raise KeyError | Some nd => body g1 nd end).
  Proof.
    intro B. destruct (is_sensor g n cid) as [[g1 [|]]|e] eqn:E; cbn [bind negb]; [| |discriminate].
    - destruct (proj2 (is_sensor_spec _ _ _ _ _ E) eq_refl) as (-> & nd & G & _). rewrite G. apply B. exact G.
    - apply foot_none. exact (proj1 (is_sensor_spec _ _ _ _ _ E)).
  Qed.

  Lemma foot_node_attr f g m :
    (forall nd p, n_id (f nd p) = n_id nd /\ n_reboot (f nd p) = n_reboot nd) -> foot g m (node_attr_handler f g m).
  Proof.
    intro Hf. unfold node_attr_handler. apply foot_guard. intros nd G. destruct (Hf nd (m_payload m)).
    apply foot_none. eapply frame_put_alert; eassumption.
  Qed.

  Lemma frame_handle_smartsleep g k nd g2 :
    get_node g k = Some nd -> handle_smartsleep orc g nd = Ok g2 -> frame g g2.
  Proof.
    intros G. unfold handle_smartsleep.
    set (nd2 := with_queue (init_smart_sleep nd) []).
    set (g1 := put_node g nd2).
    set (ga := fold_left add_job_send (n_queue (init_smart_sleep nd)) g1).
    destruct (flush_children_pre orc ga nd2 (n_children nd2)) as [sets e].
    destruct e; [discriminate|]. intro H; inversion H; subst g2.
    apply (frame_trans g g1); [apply (frame_put g k nd nd2 G); reflexivity|].
    apply (frame_trans g1 ga); [apply frame_fold_add_job|]. apply frame_fold_add_job.
  Qed.

  Lemma foot_run_leaf h g m : is_fw_leaf h = false -> foot g m (run_leaf orc clock h g m).
  Proof.
    intro NF. destruct h; try discriminate NF; unfold run_leaf; try discriminate.
    - unfold handle_id_request. destruct (next_id g) as [nid|]; [|apply foot_none, frame_refl].
      destruct (negb _); [apply foot_none, frame_add_sensor|]. apply foot_bind. intros iresp _.
      apply foot_copy; [eapply frame_trans; [apply frame_add_sensor|apply frame_alert]|left; reflexivity].
    - apply foot_copy; [apply frame_refl|left; reflexivity].
    - apply foot_copy; [apply frame_refl|left; reflexivity].
    - apply foot_node_attr. intros; split; reflexivity.
    - apply foot_node_attr. intros; split; reflexivity.
    - apply foot_node_attr. intros; split; reflexivity.
    - apply foot_none, frame_refl.
    - apply foot_none, frame_alert.
    - apply foot_bind. intros idisc _. apply foot_copy; [apply frame_alert|left; reflexivity].
    - unfold handle_heartbeat_response. apply foot_guard. intros nd G. apply foot_bind. intros g2 SS.
      pose proof (frame_handle_smartsleep _ _ _ _ G SS) as F2.
      destruct (get_node g2 (m_node m)) as [nd2|] eqn:G2; [|discriminate]. apply foot_none.
      eapply frame_trans; [exact F2|]. eapply frame_put_alert; [exact G2|reflexivity|reflexivity].
    - apply foot_bind. intros [g1 b] E. apply foot_none. exact (proj1 (is_sensor_spec _ _ _ _ _ E)).
    - apply foot_node_attr. intros; split; reflexivity.
    - unfold handle_pre_sleep. apply foot_guard. intros nd G. apply foot_bind. intros g2 SS.
      apply foot_none. eapply frame_handle_smartsleep; eassumption.
  Qed.
End Handlers.

(* hand-written reading of the serial API: stream sub-type 0 = firmware config request,
   2 = firmware request; 1 / 3 = the responses; internal 13 = reboot, 19 = presentation request *)
Definition stream_spec (s : Z) : option hfun :=
  if s =? 0 then Some HFwConfigReq else if s =? 2 then Some HFwReq else None.

Record tabfacts (t : vtab) (ge : bool) : Prop := {
  tf_stream : vt_stream t = 4;
  tf_internal : vt_internal t = 3;
  tf_presentation : vt_presentation t = 0;
  tf_set : vt_set t = 1;
  tf_reboot : sassoc (s2p "I_REBOOT") (vt_internal_members t) = Some 13;
  tf_ipres : ge = true -> sassoc (s2p "I_PRESENTATION") (vt_internal_members t) = Some 19;
  tf_cfgresp : sassoc (s2p "ST_FIRMWARE_CONFIG_RESPONSE") (vt_stream_members t) = Some 1;
  tf_fwresp : sassoc (s2p "ST_FIRMWARE_RESPONSE") (vt_stream_members t) = Some 3;
  tf_stream_handlers : forall s, sub_handler t 4 s = stream_spec s;
  tf_internal_handlers : forall s h, sub_handler t 3 s = Some h -> is_fw_leaf h = false }.

Definition is_stream_spec (s : Z) (a : option hfun) : bool :=
  match stream_spec s, a with
  | Some HFwConfigReq, Some HFwConfigReq | Some HFwReq, Some HFwReq | None, None => true
  | _, _ => false
  end.
Lemma is_stream_spec_eq s a : is_stream_spec s a = true -> a = stream_spec s.
Proof.
  unfold is_stream_spec, stream_spec. destruct (s =? 0); [|destruct (s =? 2)];
    destruct a as [[]|]; intro H; try discriminate H; reflexivity.
Qed.

(* the stream sub-types of a resolved registry (GwInv.resolved) are those of stream_spec *)
Definition stream_ok (subs : list (Z * list (Z * option hfun))) : bool :=
  match zassoc 4 subs with
  | Some l => forallb (fun so => is_stream_spec (fst so) (snd so)) l && zhas 0 l && zhas 2 l
  | None => false
  end.

Lemma stream_ok_sound r : stream_ok (fst r) = true -> forall s, sub_lookup r 4 s = stream_spec s.
Proof.
  unfold stream_ok, sub_lookup, olookup. intros S4 s.
  destruct (zassoc 4 (fst r)) as [l|]; [|discriminate].
  apply andb_true_iff in S4 as [S4 Z2]. apply andb_true_iff in S4 as [S4 Z0].
  rewrite forallb_forall in S4. rewrite zhas_assoc in Z0, Z2.
  destruct (zassoc s l) as [o|] eqn:E.
  - apply zassoc_In in E. apply S4 in E. apply is_stream_spec_eq. exact E.
  - unfold stream_spec. destruct (Z.eqb_spec s 0) as [->|D0]; [rewrite E in Z0; discriminate|].
    destruct (Z.eqb_spec s 2) as [->|D2]; [rewrite E in Z2; discriminate|reflexivity].
Qed.

(* finite facts about the generated tables, per version; the handlers are read off the registry
   as GwInv has resolved it *)
Lemma tabfacts_of_cfg g : cfg_ok (g_cf g) -> tabfacts (tab g) (cf_ge20 (g_cf g)).
Proof.
  intros [v [T G]]. unfold tab. rewrite T, G.
  constructor; try (destruct v; reflexivity).
  - destruct v; intro H; first [discriminate H|reflexivity].
  - intro s. rewrite sub_handler_resolved. apply stream_ok_sound. destruct v; vm_compute; reflexivity.
  - intros s h H. rewrite sub_handler_resolved in H.
    apply (all_subs_spec (fun ty _ h => negb (ty =? 3) || negb (is_fw_leaf h))) in H;
      [apply negb_true_iff; exact H|destruct v; vm_compute; reflexivity].
Qed.

Definition is_hexdigit (c : N) : bool := match hexval c with Some _ => true | None => false end.
Definition hex_request_ok (s : pstr) (words : nat) : bool :=
  Nat.eqb (List.length s) (4 * words) && forallb is_hexdigit s.

Lemma is_hexdigit_ascii c : is_hexdigit c = true -> (c <? 128)%N = true.
Proof.
  unfold is_hexdigit. destruct (hexval c) as [d|] eqn:H; [|discriminate]. intros _.
  apply N.ltb_lt. destruct (hexval_cases c d H) as [[R _]|[[R _]|[R _]]]; lia.
Qed.

Lemma unhex_pairs_spec : forall s,
  match unhex_pairs s with
  | Some b => forallb is_hexdigit s = true /\ List.length s = (2 * List.length b)%nat
  | None => Nat.even (List.length s) = false \/ forallb is_hexdigit s = false
  end.
Proof.
  fix IH 1. intros [|a [|c r]]; [split; reflexivity|left; reflexivity|].
  rewrite unhex_pairs_cons2. cbn [forallb List.length]. specialize (IH r). unfold is_hexdigit in *.
  destruct (hexval a); [|right; reflexivity]. destruct (hexval c); [|right; reflexivity].
  destruct (unhex_pairs r) as [b|]; cbn [option_map List.length andb].
  - destruct IH as [F L]. split; [exact F|lia].
  - exact IH.
Qed.

Theorem fw_hex_to_int_ok_iff s n : (exists ws, fw_hex_to_int s n = Ok ws) <-> hex_request_ok s n = true.
Proof.
  unfold hex_request_ok, fw_hex_to_int, unhexlify, unpack_le16. pose proof (unhex_pairs_spec s) as U. split.
  - intros [ws H].
    destruct (negb (is_ascii s)); [discriminate|]. destruct (Nat.odd (List.length s)); [discriminate|].
    destruct (unhex_pairs s) as [b|]; cbn [of_option bind] in H; [|discriminate].
    destruct U as [F L]. rewrite F, andb_true_r.
    destruct (Nat.eqb (List.length b) (2 * n)) eqn:E; [|discriminate].
    apply Nat.eqb_eq in E. apply Nat.eqb_eq. lia.
  - intro H. apply andb_true_iff in H as [L F]. apply Nat.eqb_eq in L.
    assert (A : is_ascii s = true).
    { unfold is_ascii. rewrite forallb_forall in *. intros c I. apply is_hexdigit_ascii. apply F. exact I. }
    assert (O : Nat.odd (List.length s) = false)
      by (rewrite L; replace (4 * n)%nat with (2 * (2 * n))%nat by lia; apply odd_double).
    rewrite A, O. cbn [negb].
    destruct (unhex_pairs s) as [b|]; [|rewrite <- Nat.negb_odd, O in U; destruct U as [U|U]; [discriminate U|congruence]].
    cbn [of_option bind]. destruct U as [_ L2].
    replace (Nat.eqb (List.length b) (2 * n)) with true; [eauto|]. symmetry. apply Nat.eqb_eq. lia.
Qed.

Definition stream_reply (m : msg) (sub : Z) (p : pstr) : msg :=
  mkMsg (m_node m) (m_child m) (m_type m) (m_ack m) sub p.

Definition cfg_input (m : msg) : sin :=
  match fw_hex_to_int (m_payload m) 5 with Ok _ => CfgReq | Raise _ => Malformed end.
Definition blk_input (m : msg) : sin :=
  match fw_hex_to_int (m_payload m) 3 with Ok [t; v; b] => BlkReq (t, v) b | _ => Malformed end.
Definition stream_input (m : msg) : option sin :=
  if m_sub m =? 0 then Some (cfg_input m) else if m_sub m =? 2 then Some (blk_input m) else None.

Lemma stream_input_sub m i : stream_input m = Some i ->
  match i with CfgReq => m_sub m = 0 | BlkReq _ _ => m_sub m = 2 | Update _ => False | Malformed => True end.
Proof.
  unfold stream_input, cfg_input, blk_input.
  destruct (Z.eqb_spec (m_sub m) 0); [|destruct (Z.eqb_spec (m_sub m) 2); [|discriminate]]; intro H; inversion H.
  - destruct (fw_hex_to_int (m_payload m) 5); auto.
  - destruct (fw_hex_to_int (m_payload m) 3) as [[|a [|b [|c [|d r]]]]|]; auto.
Qed.

(* the message an offer becomes, given the firmware dictionary: config response (sub-type 1)
   for the key of the offer, block response (sub-type 3) for the requested key and block;
   nothing when no image is stored for that key; struct.error of the packing propagates *)
Definition offer_reply (fws : list ((Z * Z) * fware)) (m : msg) (out : sout) : res (option msg) :=
  match out with
  | NoOut => Ok None
  | CfgResp (t, v) =>
      match fw_lookup t v fws with
      | Some f => do p <- fw_config_payload t v f; Ok (Some (stream_reply m 1 p))
      | None => Ok None
      end
  | BlkResp (t, v) b =>
      match fw_lookup t v fws with
      | Some f => do p <- fw_response_payload t v b f; Ok (Some (stream_reply m 3 p))
      | None => Ok None
      end
  end.

Definition same_core (g g' : gw) : Prop :=
  g_cf g' = g_cf g /\ g_sensors g' = g_sensors g /\ g_metric g' = g_metric g /\ g_jobs g' = g_jobs g.

Definition leaf_sim (g : gw) (m : msg) (i : sin) (r : res (gw * option msg)) : Prop :=
  let so := sstep (abs (g_ota g) (m_node m)) i in
  exists g',
    r = (do rm <- offer_reply (o_fw (g_ota g)) m (snd so); Ok (g', rm)) /\
    sess_inv (g_ota g') /\ o_fw (g_ota g') = o_fw (g_ota g) /\
    abs (g_ota g') (m_node m) = fst so /\
    (forall n, n <> m_node m -> abs (g_ota g') n = abs (g_ota g) n) /\
    same_core g g' /\ g_log g' = g_log g /\ g_dirty g' = g_dirty g.

Lemma leaf_sim_nop g m : sess_inv (g_ota g) -> leaf_sim g m Malformed (Ok (g, None)).
Proof. intro SI. exists g. split; [reflexivity|]. split; [exact SI|]. repeat split; reflexivity. Qed.

Lemma respond_fw_config_sim g m :
  tabfacts (tab g) (cf_ge20 (g_cf g)) -> sess_inv (g_ota g) -> wire_ok (m_payload m) = true ->
  leaf_sim g m (cfg_input m) (respond_fw_config g m).
Proof.
  intros TF SI W. unfold respond_fw_config, cfg_input.
  destruct (fw_hex_to_int (m_payload m) 5); [|apply leaf_sim_nop, SI].
  destruct (ota_get_fw_sim (g_ota g) (m_node m) CfgReq true None SI eq_refl) as (SI' & FW & AB & OT & OUT).
  destruct (ota_get_fw _ _ _ _) as [o' r]. cbn [fst snd] in *.
  exists (set_ota g o'). cbn [g_ota set_ota g_log g_dirty].
  split; [|split; [exact SI'|split; [exact FW|split; [exact AB|split; [exact OT|repeat split; reflexivity]]]]].
  subst r. destruct (abs (g_ota g) (m_node m)) as [|[t v]|[t v]|[t v]];
    cbn [sstep fst snd offer_reply bind]; try reflexivity.
  all: destruct (fw_lookup t v (o_fw (g_ota g))) as [f|]; cbn [option_map bind]; [|reflexivity].
  all: unfold stream_member; rewrite (tf_cfgresp _ _ TF); cbn [of_option bind];
       rewrite (copy_spec _ _ W); cbn [bind]; destruct (fw_config_payload t v f); reflexivity.
Qed.

Lemma respond_fw_sim g m :
  tabfacts (tab g) (cf_ge20 (g_cf g)) -> sess_inv (g_ota g) -> wire_ok (m_payload m) = true ->
  leaf_sim g m (blk_input m) (respond_fw g m).
Proof.
  intros TF SI W. unfold respond_fw, blk_input.
  destruct (fw_hex_to_int (m_payload m) 3) as [[|rt [|rv [|rb [|x y]]]]|e]; try (apply leaf_sim_nop, SI).
  destruct (ota_get_fw_sim (g_ota g) (m_node m) (BlkReq (rt, rv) rb) false _ SI eq_refl)
    as (SI' & FW & AB & OT & OUT).
  destruct (ota_get_fw _ _ _ _) as [o' r]. cbn [fst snd] in *.
  exists (set_ota g o'). cbn [g_ota set_ota g_log g_dirty].
  split; [|split; [exact SI'|split; [exact FW|split; [exact AB|split; [exact OT|repeat split; reflexivity]]]]].
  subst r. destruct (abs (g_ota g) (m_node m)) as [|k|k|k];
    cbn [sstep fst snd offer_reply bind]; try reflexivity.
  all: destruct (fw_lookup rt rv (o_fw (g_ota g))) as [f|]; cbn [option_map bind]; [|reflexivity].
  all: unfold stream_member; rewrite (tf_fwresp _ _ TF); cbn [of_option bind];
       rewrite (copy_spec _ _ W); cbn [bind]; destruct (fw_response_payload rt rv rb f); reflexivity.
Qed.

Definition SInv (g : gw) : Prop := sess_inv (g_ota g) /\ ids_ok g.

Lemma SInv_frame g g' : frame g g' -> SInv g -> SInv g'.
Proof. intros (O & _ & _ & F) [S I]. split; [rewrite O; exact S|apply F; exact I]. Qed.

(* the key an update call schedules, if it schedules at all: int(type), int(version) succeed
   and are 16-bit words; an image was given (non-empty) or one is already stored for the key *)
Definition update_key (g : gw) (fwt fwv : vtarg) (bin : option (list N)) : option fwkey :=
  match vt_int fwt, vt_int fwv with
  | Some t, Some v =>
      if word_ok t && word_ok v then
        match bin with
        | Some [] => None            (* Tasks.update_fw: load failed / empty -> return *)
        | Some _ => Some (t, v)
        | None => match fw_lookup t v (o_fw (g_ota g)) with Some _ => Some (t, v) | None => None end
        end
      else None
  | _, _ => None
  end.

Lemma update_key_sound g tt vv bin t v : update_key g tt vv bin = Some (t, v) ->
  vt_int tt = Some t /\ vt_int vv = Some v /\ 0 <= t <= 65535 /\ 0 <= v <= 65535 /\
  ((exists b0 br, bin = Some (b0 :: br)) \/
   (bin = None /\ exists f, fw_lookup t v (o_fw (g_ota g)) = Some f)).
Proof.
  unfold update_key. destruct (vt_int tt) as [t0|]; [|discriminate].
  destruct (vt_int vv) as [v0|]; [|discriminate].
  destruct (word_ok t0 && word_ok v0) eqn:W; [|discriminate].
  apply andb_true_iff in W as [Wt Wv]. apply word_ok_iff in Wt, Wv.
  destruct bin as [[|b0 br]|]; [discriminate| |].
  - intro H; inversion H; subst. repeat split; try assumption; try lia. left. eauto.
  - destruct (fw_lookup t0 v0 (o_fw (g_ota g))) as [f|] eqn:L; [|discriminate].
    intro H; inversion H; subst. repeat split; try assumption; try lia. right. eauto.
Qed.

Lemma fw_lookup_In t v l f : fw_lookup t v l = Some f -> In ((t, v), f) l.
Proof.
  induction l as [|[[t' v'] f'] l IH]; simpl; [discriminate|].
  destruct (Z.eqb t t' && Z.eqb v v') eqn:E.
  - apply andb_true_iff in E as [E1 E2]. apply Z.eqb_eq in E1, E2. subst. intro H; inversion H. left. reflexivity.
  - intro H. right. auto.
Qed.

Lemma fw_lookup_store_same t v f l : fw_lookup t v (fw_store t v f l) = Some f.
Proof.
  induction l as [|[[t' v'] f'] l IH]; simpl; [rewrite !Z.eqb_refl; reflexivity|].
  destruct (Z.eqb t t' && Z.eqb v v') eqn:E; simpl; [rewrite !Z.eqb_refl; reflexivity|].
  rewrite E. exact IH.
Qed.

Lemma fw_lookup_store_mono t v f l t' v' f' :
  fw_lookup t' v' l = Some f' -> exists x, fw_lookup t' v' (fw_store t v f l) = Some x.
Proof.
  induction l as [|[[t2 v2] f2] l IH]; simpl; [discriminate|].
  destruct (Z.eqb t t2 && Z.eqb v v2) eqn:E; simpl.
  - apply andb_true_iff in E as [E1 E2]. apply Z.eqb_eq in E1, E2. subst t2 v2.
    destruct (Z.eqb t' t && Z.eqb v' v); eauto.
  - destruct (Z.eqb t' t2 && Z.eqb v' v2); eauto.
Qed.

Definition same_sessions (o o' : ota) : Prop :=
  o_requested o' = o_requested o /\ o_unstarted o' = o_unstarted o /\ o_started o' = o_started o.

(* everything but the sensors and the OTA state *)
Definition other_fields (g : gw) := (g_cf g, g_log g, g_jobs g, g_dirty g, g_metric g).

Lemma update_one_spec t v g nid : SInv g ->
  let g' := update_one t v g nid in
  SInv g' /\ other_fields g' = other_fields g /\ o_fw (g_ota g') = o_fw (g_ota g) /\
  forall n, known g' n = known g n /\
    abs (g_ota g') n = (if (n =? nid) && known g n then Requested (t, v) else abs (g_ota g) n) /\
    reboot_flag g' n = (if (n =? nid) && known g n then true else reboot_flag g n).
Proof.
  intros [SI I] g'. subst g'. unfold update_one.
  destruct (get_node g nid) as [nd|] eqn:G.
  2:{ apply known_false in G. split; [split; assumption|]. split; [reflexivity|]. split; [reflexivity|].
      intro n. destruct (Z.eqb_spec n nid) as [->|]; [rewrite G|]; repeat split; reflexivity. }
  assert (K : known g nid = true) by (apply known_get; eauto).
  pose proof (ids_ok_get g nid nd I G) as ID. pose proof SI as (N1 & N2 & N3 & _).
  set (o' := mkOta (o_fw (g_ota g)) (zset nid (t, v) (o_requested (g_ota g)))
                   (zdel nid (o_unstarted (g_ota g))) (zdel nid (o_started (g_ota g)))).
  destruct (sess_inv_at (g_ota g) o' nid SI) as [SI' OT];
    [apply NoDup_zset; exact N1|apply NoDup_zdel; exact N2|apply NoDup_zdel; exact N3| |
     right; right; split; apply zassoc_zdel_same; assumption|].
  { intros m D. cbn [o' o_requested o_unstarted o_started].
    rewrite zassoc_zset_other, !zassoc_zdel_other by congruence. auto. }
  change (g_ota (put_node (set_ota g o') (with_reboot nd true))) with o'.
  assert (GN : forall n, get_node (put_node (set_ota g o') (with_reboot nd true)) n =
                         if n =? nid then Some (with_reboot nd true) else get_node g n).
  { intro n. rewrite get_node_put. cbn [n_id with_reboot]. rewrite ID. reflexivity. }
  split; [split; [exact SI'|apply ids_ok_put; exact I]|]. split; [reflexivity|]. split; [reflexivity|].
  intro n. unfold known at 1, zhas, reboot_flag at 1.
  fold (get_node (put_node (set_ota g o') (with_reboot nd true)) n). rewrite GN.
  destruct (Z.eqb_spec n nid) as [->|D]; cbn [andb].
  - rewrite K. split; [reflexivity|]. split; [|reflexivity].
    unfold abs. cbn [o' o_requested]. rewrite zassoc_zset_same. reflexivity.
  - split; [reflexivity|]. split; [apply OT; exact D|reflexivity].
Qed.

Lemma update_fold_spec t v nids : forall g, SInv g ->
  let g' := fold_left (update_one t v) nids g in
  SInv g' /\ other_fields g' = other_fields g /\ o_fw (g_ota g') = o_fw (g_ota g) /\
  forall n, known g' n = known g n /\
    abs (g_ota g') n = (if zmem n nids && known g n then Requested (t, v) else abs (g_ota g) n) /\
    reboot_flag g' n = (if zmem n nids && known g n then true else reboot_flag g n).
Proof.
  induction nids as [|nid r IH]; intros g SI; cbn [fold_left zmem].
  - split; [exact SI|]. repeat split; reflexivity.
  - destruct (update_one_spec t v g nid SI) as (S1 & R1 & F1 & P1).
    destruct (IH _ S1) as (S2 & R2 & F2 & P2).
    split; [exact S2|]. split; [congruence|]. split; [congruence|].
    intro n. destruct (P1 n) as (K1 & A1 & B1), (P2 n) as (K2 & A2 & B2).
    rewrite K2, A2, B2, K1, A1, B1. destruct (n =? nid), (zmem n r), (known g n); repeat split; reflexivity.
Qed.

Lemma update_fw_eq g nids fwt fwv bin :
  update_fw g nids fwt fwv bin =
  Ok (match update_key g fwt fwv bin with
      | None => g
      | Some (t, v) =>
          fold_left (update_one t v) nids
            (set_ota g (mkOta (match bin with
                               | Some b => fw_store t v (prepare_fw b) (o_fw (g_ota g))
                               | None => o_fw (g_ota g)
                               end)
                              (o_requested (g_ota g)) (o_unstarted (g_ota g)) (o_started (g_ota g))))
      end).
Proof.
  unfold update_fw, update_key.
  destruct bin as [[|b0 br]|], (vt_int fwt) as [t|], (vt_int fwv) as [v|]; try reflexivity.
  all: change (negb ((0 <=? t) && (t <=? 65535)) || negb ((0 <=? v) && (v <=? 65535)))
         with (negb (word_ok t) || negb (word_ok v));
       destruct (word_ok t), (word_ok v); try reflexivity; cbn [negb orb andb].
  - rewrite fw_lookup_store_same. reflexivity.
  - destruct (fw_lookup t v (o_fw (g_ota g))); [reflexivity|].
    destruct g as [cf s [fw rq us st] mt jb dt lg]. reflexivity.
Qed.

Lemma update_fw_foot g nids fwt fwv bin : SInv g ->
  exists g', update_fw g nids fwt fwv bin = Ok g' /\ SInv g' /\ other_fields g' = other_fields g /\
    (forall n, known g' n = known g n) /\
    match update_key g fwt fwv bin with
    | None => g' = g
    | Some (t, v) =>
        o_fw (g_ota g') = match bin with
                          | Some b => fw_store t v (prepare_fw b) (o_fw (g_ota g))
                          | None => o_fw (g_ota g)
                          end /\
        forall n,
          abs (g_ota g') n = (if zmem n nids && known g n then Requested (t, v) else abs (g_ota g) n) /\
          reboot_flag g' n = (if zmem n nids && known g n then true else reboot_flag g n)
    end.
Proof.
  intros SI. rewrite update_fw_eq. eexists. split; [reflexivity|].
  destruct (update_key g fwt fwv bin) as [[t v]|]; [|repeat split; try reflexivity; apply SI].
  set (g0 := set_ota g _).
  destruct (update_fold_spec t v nids g0 SI) as (S2 & R2 & F2 & P2).
  split; [exact S2|]. split; [exact R2|]. split; [intro n; apply P2|]. split; [exact F2|].
  intro n. destruct (P2 n) as (_ & A & B). split; assumption.
Qed.

Section Logic.
  Variable orc : oracles.
  Variable clock : Z.

  Definition post_route (r : res (gw * option msg)) : res (gw * option pstr) :=
    do x <- r;
    let '(g1, reply) := x in
    let '(g2, routed) := route_opt g1 reply in
    Ok (g2, option_map encode routed).

  Definition top_handler (ty : Z) : hfun :=
    match ty with 0 => HPresentation | 1 => HSet | 2 => HReq | 3 => HInternal | _ => HStream end.

  Lemma logic_dispatch g l m : cfg_ok (g_cf g) -> decode l = Some m -> gvalidate orc g m = true ->
    0 <= m_type m <= 4 /\
    logic orc clock g l = post_route (run_handler orc clock (top_handler (m_type m)) g m).
  Proof.
    intros C D V. pose proof (validated_type_range orc g m C V) as B.
    unfold logic. rewrite D, V. cbn [negb].
    destruct (type_handler_cases g (m_type m) (facts_of_cfg g C) B) as [[T E]|[[T E]|[[T E]|[[T E]|[T E]]]]];
      rewrite E, T; split; (lia || reflexivity).
  Qed.

  Lemma route_some g m g' x : route g m = (g', Some x) -> x = m.
  Proof.
    unfold route. destruct (m_type m =? vt_presentation (tab g)); [discriminate|].
    destruct (get_node g (m_node m)) as [nd|]; [|intro H; inversion H; reflexivity].
    destruct ((m_type m =? vt_stream (tab g)) || negb (sleeping nd)); [intro H; inversion H; reflexivity|discriminate].
  Qed.

  Theorem logic_other g l m g' r :
    cfg_ok (g_cf g) -> decode l = Some m -> gvalidate orc g m = true ->
    m_type m <> 4 -> ~ (m_type m = 0 /\ m_child m = 255) ->
    logic orc clock g l = Ok (g', r) ->
    frame g g' /\ forall rl, r = Some rl -> exists x, rl = encode x /\ m_type x <> 4.
  Proof.
    intros C D V NS NP. pose proof (tabfacts_of_cfg g C) as TF.
    destruct (logic_dispatch g l m C D V) as [B ->].
    assert (FT : foot g m (run_handler orc clock (top_handler (m_type m)) g m)).
    { assert (T : m_type m = 0 \/ m_type m = 1 \/ m_type m = 2 \/ m_type m = 3) by lia.
      destruct T as [T|[T|[T|T]]]; rewrite T; unfold top_handler, run_handler.
      - unfold handle_presentation.
        destruct (Z.eqb_spec (m_child m) system_child_id) as [CH|_]; [tauto|]. apply foot_guard. intros nd G.
        destruct (zhas (m_child m) (n_children nd)); [apply foot_none, frame_refl|].
        apply foot_ok; [eapply frame_put_alert; [exact G|reflexivity|reflexivity]|].
        intros x H. inversion H. left. reflexivity.
      - unfold handle_set. apply foot_guard. intros nd G. cbv beta zeta.
        destruct (update_child_value_fields nd (m_child m) (m_sub m) (m_payload m)) as (U1 & U2 & _).
        pose proof (frame_put_alert g _ nd _ m G U1 U2) as F.
        destruct (n_reboot _); [|apply foot_none, F].
        apply foot_bind. intros ireb _. apply foot_copy; [exact F|right; left; reflexivity].
      - unfold handle_req. apply foot_guard. intros nd G. cbv beta.
        destruct (get_desired_value nd (m_child m) (m_sub m)); [|apply foot_none, frame_refl].
        apply foot_copy; [apply frame_refl|right; right; reflexivity].
      - unfold handle_internal. rewrite T.
        destruct (sub_handler (tab g) 3 (m_sub m)) as [h|] eqn:SH; [|apply foot_none, frame_refl].
        apply foot_run_leaf. eapply tf_internal_handlers; eassumption. }
    unfold post_route. destruct (run_handler _ _ _ g m) as [[g1 reply]|e]; cbn [bind]; [|discriminate].
    destruct (FT g1 reply eq_refl) as [F RT]. pose proof (frame_route_opt g1 reply) as FR.
    destruct (route_opt g1 reply) as [g2 routed] eqn:RO. intro H; inversion H; subst g' r.
    split; [eapply frame_trans; eassumption|].
    destruct reply as [x|]; [|inversion RO; discriminate]. destruct routed as [y|]; [|discriminate].
    apply route_some in RO. subst y. intros rl RL. inversion RL. exists x. split; [reflexivity|].
    destruct (RT (decoded_payload_wire_ok _ _ D) x eq_refl) as [X|[X|X]]; rewrite X;
      [exact NS|rewrite (tf_internal _ _ TF); discriminate|rewrite (tf_set _ _ TF); discriminate].
  Qed.

  (* no reply line: presentations are not routed *)
  Theorem logic_node_presentation g l m :
    cfg_ok (g_cf g) -> decode l = Some m -> gvalidate orc g m = true -> m_type m = 0 -> m_child m = 255 ->
    exists g', logic orc clock g l = Ok (g', None) /\
      g_ota g' = g_ota g /\ g_cf g' = g_cf g /\
      (forall n, known g n = true -> known g' n = true) /\ known g' (m_node m) = true /\
      (ids_ok g -> ids_ok g' /\ reboot_flag g' (m_node m) = false /\
                   forall n, n <> m_node m -> reboot_flag g' n = reboot_flag g n).
  Proof.
    intros C D V T CH. pose proof (tabfacts_of_cfg g C) as TF.
    destruct (logic_dispatch g l m C D V) as [_ ->]. rewrite T.
    unfold top_handler, run_handler, post_route, handle_presentation. rewrite CH.
    change (255 =? system_child_id) with true. cbv iota.
    destruct (get_node_add_sensor g (m_node m)) as [nd G]. rewrite G. cbn [bind].
    pose proof (frame_add_sensor g (m_node m)) as (O1 & C1 & K1 & F1).
    set (g1 := add_sensor g (m_node m)) in *.
    set (nd' := mkNode (n_id nd) (n_children nd) (Some (m_sub m)) (n_sk_name nd) (n_sk_ver nd)
                       (n_batt nd) (safe_version orc (m_payload m)) (n_hb nd) (n_new nd) (n_queue nd) false).
    destruct (alert_frame (put_node g1 nd') m) as (AS & AO & AC & _).
    exists (alert (put_node g1 nd') m). split.
    { unfold route_opt, route, tab. rewrite AC. change (g_cf (put_node g1 nd')) with (g_cf g1). rewrite C1.
      fold (tab g). rewrite T, (tf_presentation _ _ TF). reflexivity. }
    split; [rewrite AO; exact O1|]. split; [rewrite AC; exact C1|].
    assert (GN : forall n, get_node (alert (put_node g1 nd') m) n = if n =? n_id nd' then Some nd' else get_node g1 n).
    { intro n. unfold get_node at 1. rewrite AS. apply get_node_put. }
    split; [|split].
    - intros n K. apply K1 in K. apply known_get in K as [x K]. apply known_get. rewrite GN.
      destruct (n =? n_id nd'); eauto.
    - apply known_get. rewrite GN. destruct (m_node m =? n_id nd'); eauto.
    - intro I. destruct (F1 I) as [I1 R1].
      pose proof (ids_ok_get g1 _ _ I1 G) as K. change (n_id nd') with (n_id nd) in GN. rewrite K in GN.
      split; [|split].
      + unfold ids_ok. rewrite AS. apply ids_ok_put. exact I1.
      + unfold reboot_flag. rewrite GN, Z.eqb_refl. reflexivity.
      + intros n D0. unfold reboot_flag at 1. rewrite GN.
        destruct (Z.eqb_spec n (m_node m)); [contradiction|]. apply R1.
  Qed.

  Theorem non_stream_reply g l m g' rl :
    cfg_ok (g_cf g) -> decode l = Some m -> gvalidate orc g m = true -> m_type m <> 4 ->
    logic orc clock g l = Ok (g', Some rl) -> exists x, rl = encode x /\ m_type x <> 4.
  Proof.
    intros C D V NT E.
    assert (NP : ~ (m_type m = 0 /\ m_child m = 255)).
    { intros [T0 CH]. destruct (logic_node_presentation g l m C D V T0 CH) as (g1 & EL & _).
      rewrite EL in E. discriminate. }
    exact (proj2 (logic_other g l m g' _ C D V NT NP E) rl eq_refl).
  Qed.

  Lemma logic_stream g l m : cfg_ok (g_cf g) -> decode l = Some m -> gvalidate orc g m = true -> m_type m = 4 ->
    logic orc clock g l = post_route (handle_stream orc clock g m).
  Proof. intros C D V T. destruct (logic_dispatch g l m C D V) as [_ ->]. rewrite T. reflexivity. Qed.

  Lemma handle_stream_known g m : tabfacts (tab g) (cf_ge20 (g_cf g)) -> m_type m = 4 -> known g (m_node m) = true ->
    handle_stream orc clock g m =
      match stream_spec (m_sub m) with
      | None => Ok (g, None)
      | Some h => do r <- run_leaf orc clock h g m; let '(g2, resp) := r in Ok (alert g2 m, resp)
      end.
  Proof.
    intros TF T K. apply known_get in K as [nd G]. unfold handle_stream, is_sensor. rewrite G. cbn [bind negb andb].
    rewrite T, (tf_stream_handlers _ _ TF). reflexivity.
  Qed.

  Lemma offer_reply_some fws m s i x : offer_reply fws m (snd (sstep s i)) = Ok (Some x) ->
    m_type x = m_type m /\ m_node x = m_node m /\
    ((i = CfgReq /\ m_sub x = 1 /\ exists k, s = Requested k \/ s = Offered k) \/
     ((exists k' b, i = BlkReq k' b) /\ m_sub x = 3 /\ exists k, s = Offered k \/ s = Fetching k)).
  Proof.
    destruct i as [k| |[t' v'] b|], s as [|[t v]|[t v]|[t v]]; cbn [sstep snd offer_reply]; try discriminate.
    all: destruct (fw_lookup _ _ fws) as [f|]; [|discriminate].
    all: try destruct (fw_config_payload _ _ _); try destruct (fw_response_payload _ _ _ _);
         cbn [bind]; try discriminate.
    all: intro H; inversion H; subst x; split; [reflexivity|split; [reflexivity|]].
    1, 2: left; split; [reflexivity|split; [reflexivity|eauto]].
    all: right; split; [eauto|split; [reflexivity|eauto]].
  Qed.

  Theorem logic_stream_request g l m i :
    cfg_ok (g_cf g) -> sess_inv (g_ota g) ->
    decode l = Some m -> gvalidate orc g m = true -> m_type m = 4 -> known g (m_node m) = true ->
    stream_input m = Some i ->
    let so := sstep (abs (g_ota g) (m_node m)) i in
    exists g',
      logic orc clock g l =
        (do rm <- offer_reply (o_fw (g_ota g)) m (snd so); Ok (g', option_map encode rm)) /\
      sess_inv (g_ota g') /\ o_fw (g_ota g') = o_fw (g_ota g) /\
      abs (g_ota g') (m_node m) = fst so /\
      (forall n, n <> m_node m -> abs (g_ota g') n = abs (g_ota g) n) /\
      same_core g g' /\ g_log g' = g_log (alert g m) /\ g_dirty g' = g_dirty (alert g m).
  Proof.
    intros C SI D V T K IN so.
    pose proof (tabfacts_of_cfg g C) as TF. pose proof (decoded_payload_wire_ok _ _ D) as W.
    rewrite (logic_stream g l m C D V T), (handle_stream_known g m TF T K).
    assert (L : exists h, stream_spec (m_sub m) = Some h /\ leaf_sim g m i (run_leaf orc clock h g m)).
    { unfold stream_input in IN. unfold stream_spec.
      destruct (m_sub m =? 0); [|destruct (m_sub m =? 2); [|discriminate]];
        inversion IN; subst i; eexists; (split; [reflexivity|]).
      - exact (respond_fw_config_sim g m TF SI W).
      - exact (respond_fw_sim g m TF SI W). }
    destruct L as (h & -> & g1 & -> & SI1 & FW1 & AB1 & OT1 & (C1 & S1 & M1 & J1) & L1 & D1).
    fold so. exists (alert g1 m). destruct (alert_frame g1 m) as (AS & AO & AC & AJ & AM).
    split.
    { unfold post_route.
      destruct (offer_reply (o_fw (g_ota g)) m (snd so)) as [[x|]|e] eqn:OR; cbn [bind]; try reflexivity.
      destruct (offer_reply_some _ _ _ _ _ OR) as (TX & _).
      unfold route_opt, route, tab. rewrite AC, C1. fold (tab g).
      rewrite TX, T, (tf_presentation _ _ TF), (tf_stream _ _ TF). cbn. destruct (get_node _ _); reflexivity. }
    rewrite AO. split; [exact SI1|]. split; [exact FW1|]. split; [exact AB1|]. split; [exact OT1|].
    split; [repeat split; congruence|].
    unfold alert. rewrite C1, S1.
    destruct (cf_callback (g_cf g)), (cf_persist (g_cf g)); cbn [g_log g_dirty emit set_dirty];
      rewrite ?L1, ?D1; split; reflexivity.
  Qed.

  Theorem logic_stream_other g l m :
    cfg_ok (g_cf g) -> decode l = Some m -> gvalidate orc g m = true -> m_type m = 4 ->
    known g (m_node m) = true -> stream_input m = None ->
    logic orc clock g l = Ok (g, None).
  Proof.
    intros C D V T K IN. rewrite (logic_stream g l m C D V T), (handle_stream_known g m (tabfacts_of_cfg g C) T K).
    unfold stream_input in IN. unfold stream_spec.
    destruct (m_sub m =? 0); [discriminate|]. destruct (m_sub m =? 2); [discriminate|]. reflexivity.
  Qed.

  Theorem logic_stream_unknown g l m :
    cfg_ok (g_cf g) -> decode l = Some m -> gvalidate orc g m = true -> m_type m = 4 ->
    known g (m_node m) = false ->
    logic orc clock g l =
      Ok (if cf_ge20 (g_cf g) then add_job_send g (encode (mkMsg (m_node m) 255 3 0 19 [])) else g, None).
  Proof.
    intros C D V T K. pose proof (tabfacts_of_cfg g C) as TF. rewrite (logic_stream g l m C D V T).
    apply known_false in K. unfold handle_stream, is_sensor. rewrite K, (gvalidate_node_id_ok orc g m V).
    cbn [negb andb]. destruct (cf_ge20 (g_cf g)) eqn:GE; [|reflexivity].
    rewrite (tf_ipres _ _ TF eq_refl). unfold route. cbn [m_type m_node].
    rewrite (tf_internal _ _ TF), (tf_presentation _ _ TF), K. reflexivity.
  Qed.

  Definition request_of_line (g : gw) (l : pstr) (n : Z) : option sin :=
    match decode l with
    | Some m => if gvalidate orc g m && (m_type m =? 4) && (m_node m =? n) && known g n
                then stream_input m else None
    | None => None
    end.
  Definition presents_line (g : gw) (l : pstr) (n : Z) : bool :=
    match decode l with
    | Some m => gvalidate orc g m && (m_type m =? 0) && (m_child m =? 255) && (m_node m =? n)
    | None => false
    end.

  Definition after_line (g : gw) (l : pstr) (g1 : gw) : Prop :=
    SInv g1 /\ g_cf g1 = g_cf g /\ (forall n, known g n = true -> known g1 n = true) /\
    o_fw (g_ota g1) = o_fw (g_ota g) /\
    forall n,
      abs (g_ota g1) n = match request_of_line g l n with
                         | Some i => fst (sstep (abs (g_ota g) n) i)
                         | None => abs (g_ota g) n
                         end /\
      reboot_flag g1 n = (if presents_line g l n then false else reboot_flag g n).

  (* Every line, whatever it is: each session moves by the request the line carries for it and by
     nothing else; a flag is cleared by a node presentation and by nothing else.  The dispatcher
     may raise (a packing error), but not on a node presentation. *)
  Theorem logic_footprint g l : cfg_ok (g_cf g) -> SInv g ->
    match logic orc clock g l with
    | Ok (g1, _) => after_line g l g1
    | Raise _ => forall n, presents_line g l n = false
    end.
  Proof.
    intros C [S I].
    assert (SAME : forall g1, frame g g1 ->
              (forall n, request_of_line g l n = None /\ presents_line g l n = false) -> after_line g l g1).
    { intros g1 F N. split; [eapply SInv_frame; [exact F|split; assumption]|].
      destruct F as (O & CF & K & R). split; [exact CF|]. split; [exact K|]. split; [rewrite O; reflexivity|].
      intro n. destruct (N n) as [-> ->]. rewrite O. split; [reflexivity|apply R; exact I]. }
    unfold after_line, request_of_line, presents_line in *.
    destruct (decode l) as [m|] eqn:D.
    2:{ rewrite (rejected_is_noop orc clock g l (or_introl D)). apply SAME; [apply frame_refl|auto]. }
    destruct (gvalidate orc g m) eqn:V; cbn [andb] in *.
    2:{ rewrite (rejected_is_noop orc clock g l) by eauto. apply SAME; [apply frame_refl|auto]. }
    destruct (Z.eqb_spec (m_type m) 4) as [T|NT]; cbn [andb] in *.
    - assert (T0 : (m_type m =? 0) = false) by (rewrite T; reflexivity). rewrite T0 in *. cbn [andb] in *.
      destruct (known g (m_node m)) eqn:K; [destruct (stream_input m) as [i|] eqn:IN|].
      + destruct (logic_stream_request g l m i C S D V T K IN) as (g' & -> & S' & FW & AB & OT & (C1 & S1 & _) & _).
        destruct (offer_reply _ m _) as [rm|e]; cbn [bind]; [|reflexivity].
        split; [split; [exact S'|unfold ids_ok; rewrite S1; exact I]|]. split; [exact C1|].
        split; [unfold known; rewrite S1; auto|]. split; [exact FW|].
        intro n. split; [|unfold reboot_flag, get_node; rewrite S1; reflexivity].
        destruct (Z.eqb_spec (m_node m) n) as [<-|DN]; cbn [andb]; [rewrite K; exact AB|apply OT; congruence].
      + rewrite (logic_stream_other g l m C D V T K IN). apply SAME; [apply frame_refl|].
        intro n. destruct ((m_node m =? n) && known g n); auto.
      + rewrite (logic_stream_unknown g l m C D V T K).
        apply SAME; [destruct (cf_ge20 (g_cf g)); [apply frame_add_job|apply frame_refl]|].
        intro n. destruct (Z.eqb_spec (m_node m) n) as [<-|DN]; cbn [andb]; [rewrite K|]; auto.
    - destruct (Z.eqb_spec (m_type m) 0) as [T0|NT0]; [destruct (Z.eqb_spec (m_child m) 255) as [CH|NCH]|];
        cbn [andb] in *.
      + destruct (logic_node_presentation g l m C D V T0 CH) as (g' & -> & O & CF & KN & _ & F).
        destruct (F I) as (I' & RF & RO).
        split; [split; [rewrite O; exact S|exact I']|]. split; [exact CF|]. split; [exact KN|].
        split; [rewrite O; reflexivity|]. intro n. rewrite O. split; [reflexivity|].
        destruct (Z.eqb_spec (m_node m) n) as [<-|DN]; [exact RF|apply RO; congruence].
      + destruct (logic orc clock g l) as [[g1 r]|e] eqn:E; [|reflexivity].
        apply SAME; [|auto]. eapply logic_other; try eassumption. lia.
      + destruct (logic orc clock g l) as [[g1 r]|e] eqn:E; [|reflexivity].
        apply SAME; [|auto]. eapply logic_other; try eassumption. tauto.
  Qed.

  Lemma frame_set_child_value g s c vt v mt a g' :
    set_child_value orc g s c vt v mt a = Ok g' -> frame g g'.
  Proof.
    unfold set_child_value.
    destruct (is_sensor g s (Some c)) as [[g1 b]|e] eqn:E; cbn [bind]; [|discriminate].
    pose proof (proj1 (is_sensor_spec _ _ _ _ _ E)) as F1.
    destruct b; cbn [negb]; [|intro H; inversion H; subst; exact F1].
    destruct (get_node g1 s) as [nd|] eqn:G; [|discriminate].
    destruct (sleeping nd).
    - destruct (create_set_message orc g1 (n_id nd) c vt v None None); cbn [bind]; [|discriminate].
      destruct (zassoc c (n_new nd)) as [dv|]; [|discriminate].
      destruct (validate_child_state orc nd c vt v); cbn [bind]; [|discriminate].
      destruct (vt_int vt) as [vti|]; [|discriminate].
      intro H; inversion H; subst. eapply frame_trans; [exact F1|].
      eapply frame_put; [exact G|reflexivity|reflexivity].
    - destruct (create_set_message orc g1 (n_id nd) c vt v mt a); cbn [bind]; [|discriminate].
      intro H; inversion H; subst. eapply frame_trans; [exact F1|apply frame_add_job].
  Qed.

  (* the line the dispatcher is run on by a step, and the state it is run in *)
  Definition line_of (g : gw) (o : op) : option pstr :=
    match o with
    | Recv l => if cf_async (g_cf g) then Some l else None
    | Pump => match g_jobs g with JLogic l :: _ => Some l | _ => None end
    | _ => None
    end.
  Definition pre_state (g : gw) (o : op) : gw :=
    match o with Pump => set_jobs g (tl (g_jobs g)) | _ => g end.

  Lemma step_line g o l : line_of g o = Some l ->
    step orc clock g o =
      match logic orc clock (pre_state g o) l with
      | Ok (g1, Some r) => send g1 r
      | Ok (g1, None) => g1
      | Raise e => emit (pre_state g o) (ERaise e)
      end.
  Proof.
    destruct o as [l0| |s c vt v mt a|ns t v b|b]; cbn [line_of pre_state step]; try discriminate.
    - unfold recv. destruct (cf_async (g_cf g)); [|discriminate]. intro H; inversion H; subst. reflexivity.
    - unfold pump. destruct (g_jobs g) as [|[l0|l0] r]; try discriminate. intro H; inversion H; subst. reflexivity.
  Qed.

  Lemma step_noline g o : line_of g o = None -> (forall ns t v b, o <> UpdateFw ns t v b) ->
    frame g (step orc clock g o).
  Proof.
    destruct o as [l0| |s c vt v mt a|ns t v b|b]; cbn [line_of step]; intros L NU.
    - unfold recv. destruct (cf_async (g_cf g)); [discriminate|apply frame_set_jobs].
    - unfold pump. destruct (g_jobs g) as [|[l0|l0] r]; [apply frame_refl|discriminate|].
      eapply frame_trans; [apply frame_set_jobs|apply frame_send].
    - destruct (set_child_value orc g s c vt v mt a) eqn:E; [eapply frame_set_child_value; exact E|apply frame_emit].
    - exfalso. eapply NU. reflexivity.
    - apply frame_set_metric.
  Qed.

  Definition schedules (g : gw) (o : op) (n : Z) : option fwkey :=
    match o with
    | UpdateFw ns ft fv bin => if zmem n ns && known g n then update_key g ft fv bin else None
    | _ => None
    end.
  Definition presents (g : gw) (o : op) (n : Z) : bool :=
    match line_of g o with
    | Some l => match decode l with
                | Some m => gvalidate orc g m && (m_type m =? 0) && (m_child m =? 255) && (m_node m =? n)
                | None => false
                end
    | None => false
    end.
  Definition request_of (g : gw) (o : op) (n : Z) : option sin :=
    match line_of g o with Some l => request_of_line g l n | None => None end.
  (* does the dispatcher raise in this step?  (never under the C01 invariant) *)
  Definition raises (g : gw) (o : op) : bool :=
    match line_of g o with
    | Some l => match logic orc clock (pre_state g o) l with Raise _ => true | Ok _ => false end
    | None => false
    end.

  Lemma Inv_no_raise g o : cfg_ok (g_cf g) -> Inv orc g -> raises g o = false.
  Proof.
    intros C IV. unfold raises. destruct (line_of g o) as [l|]; [|reflexivity].
    assert (IV0 : cfg_ok (g_cf (pre_state g o)) /\ Inv orc (pre_state g o))
      by (destruct o; split; try assumption; apply Inv_set_jobs; exact IV).
    destruct (logic_total orc clock _ l (proj1 IV0) (proj2 IV0)) as (g1 & r & -> & _). reflexivity.
  Qed.
  Definition fw_after (g : gw) (o : op) (fws : list ((Z * Z) * fware)) : Prop :=
    fws = o_fw (g_ota g) \/
    exists ns tt vv b t v, o = UpdateFw ns tt vv (Some b) /\ update_key g tt vv (Some b) = Some (t, v) /\
                           fws = fw_store t v (prepare_fw b) (o_fw (g_ota g)).

  Definition after_step (g : gw) (o : op) (g' : gw) : Prop :=
    SInv g' /\ g_cf g' = g_cf g /\ (forall n, known g n = true -> known g' n = true) /\
    fw_after g o (o_fw (g_ota g')) /\
    forall n,
      abs (g_ota g') n =
        (if raises g o then abs (g_ota g) n else
         match schedules g o n with
         | Some k => Requested k
         | None => match request_of g o n with
                   | Some i => fst (sstep (abs (g_ota g) n) i)
                   | None => abs (g_ota g) n
                   end
         end) /\
      reboot_flag g' n =
        match schedules g o n with
        | Some _ => true
        | None => if presents g o n then false else reboot_flag g n
        end.

  (* Every step, exactly: the session of a node is set by an update call that schedules it, moved
     by a stream request of the node, and otherwise kept; its flag is set by a scheduling update
     call, cleared by a node presentation, and otherwise kept. *)
  Theorem step_footprint g o : cfg_ok (g_cf g) -> SInv g -> after_step g o (step orc clock g o).
  Proof.
    intros C SI.
    assert (SAME : forall g', frame g g' -> (forall n, schedules g o n = None /\ presents g o n = false) ->
              (raises g o = true \/ forall n, request_of g o n = None) -> after_step g o g').
    { intros g' F N R. split; [eapply SInv_frame; eassumption|].
      destruct F as (O & CF & K & FL). split; [exact CF|]. split; [exact K|].
      split; [left; rewrite O; reflexivity|].
      intro n. destruct (N n) as [-> ->]. rewrite O. split; [|apply FL, SI].
      destruct R as [-> | ->]; [|destruct (raises g o)]; reflexivity. }
    destruct (line_of g o) as [l|] eqn:L.
    - assert (SC : forall n, schedules g o n = None) by (destruct o; try discriminate L; reflexivity).
      assert (LF : match logic orc clock (pre_state g o) l with
                   | Ok (g1, _) => after_line g l g1
                   | Raise _ => forall n, presents_line g l n = false
                   end)
        by (destruct o; try exact (logic_footprint g l C SI);
            exact (logic_footprint (set_jobs g _) l C SI)).
      assert (PR : forall n, presents g o n = presents_line g l n) by (intro n; unfold presents; rewrite L; reflexivity).
      rewrite (step_line g o l L).
      destruct (logic orc clock (pre_state g o) l) as [[g1 r]|e] eqn:E.
      + assert (F : frame g1 (match r with Some x => send g1 x | None => g1 end))
          by (destruct r; [apply frame_send|apply frame_refl]).
        destruct LF as (S1 & C1 & K1 & F1 & P). pose proof (SInv_frame _ _ F S1) as S2.
        destruct F as (O & C2 & K2 & FL).
        split; [exact S2|]. split; [congruence|]. split; [auto|]. split; [left; congruence|].
        intro n. destruct (P n) as [A B]. unfold raises, request_of. rewrite L, E, SC, PR, O, <- A, <- B.
        split; [reflexivity|apply FL, S1].
      + apply SAME; [eapply frame_trans; [|apply frame_emit]; destruct o; try apply frame_refl; apply frame_set_jobs| |].
        * intro n. rewrite PR. auto.
        * left. unfold raises. rewrite L, E. reflexivity.
    - assert (NI : raises g o = false /\ forall n, request_of g o n = None /\ presents g o n = false)
        by (unfold raises, request_of, presents; rewrite L; auto).
      destruct o as [l0| |s c vt v mt a|ns t v b|b];
        try (apply SAME; [apply step_noline; [exact L|intros; discriminate]|intro n; split; [reflexivity|apply NI]|
                          right; intro n; apply NI]).
      cbn [step]. destruct (update_fw_foot g ns t v b SI) as (g' & -> & S' & R & KN & SPEC).
      destruct NI as [NR NI]. unfold after_step. rewrite NR. cbn [schedules].
      split; [exact S'|]. split; [unfold other_fields in R; congruence|]. split; [intros n K; rewrite KN; exact K|].
      destruct (update_key g t v b) as [[t0 v0]|] eqn:UK.
      + destruct SPEC as (FW & P). split.
        * destruct b as [b|]; [right; exists ns, t, v, b, t0, v0; auto|left; exact FW].
        * intro n. destruct (NI n) as [-> ->], (P n) as [-> ->]. destruct (zmem n ns && known g n); split; reflexivity.
      + subst g'. split; [left; reflexivity|].
        intro n. destruct (NI n) as [-> ->]. destruct (zmem n ns && known g n); split; reflexivity.
  Qed.

  Inductive moved (g : gw) (o : op) (n : Z) (s s' : session) : Prop :=
  | mv_request : forall i, is_update i = false -> s' = fst (sstep s i) -> moved g o n s s'
  | mv_update : forall ns tt vv bin k,
      o = UpdateFw ns tt vv bin -> update_key g tt vv bin = Some k -> zmem n ns = true -> known g n = true ->
      s' = Requested k -> moved g o n s s'.

  Lemma moved_same g o n s : moved g o n s s.
  Proof. apply (mv_request g o n s s Malformed); reflexivity. Qed.

  Theorem step_moved g o : cfg_ok (g_cf g) -> SInv g ->
    SInv (step orc clock g o) /\ g_cf (step orc clock g o) = g_cf g /\
    (forall n, known g n = true -> known (step orc clock g o) n = true) /\
    fw_after g o (o_fw (g_ota (step orc clock g o))) /\
    forall n, moved g o n (abs (g_ota g) n) (abs (g_ota (step orc clock g o)) n).
  Proof.
    intros C SI. destruct (step_footprint g o C SI) as (S1 & C1 & K1 & FW & P).
    split; [exact S1|]. split; [exact C1|]. split; [exact K1|]. split; [exact FW|].
    intro n. destruct (P n) as [-> _]. destruct (raises g o); [apply moved_same|].
    destruct (schedules g o n) as [k|] eqn:SC.
    - destruct o as [| | |ns tt vv bin|]; try discriminate SC. cbn [schedules] in SC.
      destruct (zmem n ns) eqn:Z, (known g n) eqn:K; try discriminate SC.
      eapply mv_update; [reflexivity|exact SC|exact Z|exact K|reflexivity].
    - destruct (request_of g o n) as [i|] eqn:RQ; [|apply moved_same].
      apply (mv_request g o n _ _ i); [|reflexivity]. unfold request_of, request_of_line in RQ.
      destruct (line_of g o) as [l|]; [|discriminate]. destruct (decode l) as [m|]; [|discriminate].
      destruct (_ && _); [|discriminate]. apply stream_input_sub in RQ. destruct i; [contradiction|reflexivity..].
  Qed.

End Logic.

Lemma key_of_request s i : is_update i = false -> key_of (fst (sstep s i)) = key_of s.
Proof. destruct i as [k| |k b|]; [discriminate| | |]; intros _; destruct s; reflexivity. Qed.

Definition fw_avail (o : ota) : Prop :=
  forall n t v, key_of (abs o n) = Some (t, v) -> exists f, fw_lookup t v (o_fw o) = Some f.

Section Histories.
  Variable orc : oracles.
  Variable clock : Z.

  Definition names (n : Z) (o : op) : bool :=
    match o with UpdateFw ns _ _ _ => zmem n ns | _ => false end.

  Lemma run_snoc g ops o : run orc clock g (ops ++ [o]) = step orc clock (run orc clock g ops) o.
  Proof. unfold run. rewrite fold_left_app. reflexivity. Qed.

  Lemma run_app g a b : run orc clock g (a ++ b) = run orc clock (run orc clock g a) b.
  Proof. apply GwLemmas.run_app. Qed.

  Theorem run_SInv ops : forall g, cfg_ok (g_cf g) -> SInv g ->
    SInv (run orc clock g ops) /\ g_cf (run orc clock g ops) = g_cf g.
  Proof.
    induction ops as [|o ops IH]; intros g C SI; [split; [exact SI|reflexivity]|].
    destruct (step_moved orc clock g o C SI) as (SI1 & C1 & _).
    change (run orc clock g (o :: ops)) with (run orc clock (step orc clock g o) ops).
    destruct (IH (step orc clock g o)) as [SI2 C2]; [rewrite C1; exact C|exact SI1|].
    split; [exact SI2|congruence].
  Qed.

  Lemma step_fw_avail g o : cfg_ok (g_cf g) -> SInv g -> fw_avail (g_ota g) ->
    fw_avail (g_ota (step orc clock g o)).
  Proof.
    intros C SI FA. destruct (step_moved orc clock g o C SI) as (_ & _ & _ & FW & MV).
    intros n t v KO. destruct (MV n) as [i NU AB|ns tt vv bin k EO UK Z K AB].
    - rewrite AB, (key_of_request _ _ NU) in KO. destruct (FA n t v KO) as [f LK].
      destruct FW as [-> |(ns & tt & vv & b & t0 & v0 & _ & _ & ->)];
        [eauto|eapply fw_lookup_store_mono; exact LK].
    - rewrite AB in KO. inversion KO; subst k o. cbn [step].
      destruct (update_fw_foot g ns tt vv bin SI) as (g' & -> & _ & _ & _ & SPEC).
      rewrite UK in SPEC. destruct SPEC as [-> _].
      destruct (update_key_sound _ _ _ _ _ _ UK) as (_ & _ & _ & _ & [(b0 & br & ->)|(-> & AV)]);
        [rewrite fw_lookup_store_same; eauto|exact AV].
  Qed.

  Theorem reachable_invariant cf ops : cfg_ok cf ->
    let g := run orc clock (gw_init cf) ops in
    sess_inv (g_ota g) /\ ids_ok g /\ fw_avail (g_ota g) /\ g_cf g = cf.
  Proof.
    intros C g. subst g.
    assert (SI : forall ops, SInv (run orc clock (gw_init cf) ops) /\ g_cf (run orc clock (gw_init cf) ops) = cf)
      by (intro; apply run_SInv; [exact C|split; [apply sess_inv_init|constructor]]).
    destruct (SI ops) as [[S I] CF]. split; [exact S|]. split; [exact I|]. split; [|exact CF].
    clear S I CF. induction ops as [|o ops IH] using rev_ind; [intros n t v KO; discriminate KO|].
    rewrite run_snoc. destruct (SI ops) as [SI' CF]. apply step_fw_avail; [rewrite CF; exact C|exact SI'|exact IH].
  Qed.
End Histories.

Section Replies.
  Variable orc : oracles.
  Variable clock : Z.

  (* Gating: a reply line, whatever the line that caused it, answers an accepted message; it is a
     stream message only for a stream request of a known node, and then the response matching the
     request in a session state that allows it: config request in Requested/Offered -> config
     response (sub-type 1); block request in Offered/Fetching -> block response (sub-type 3). *)
  Theorem reply_cases g l g' rl : cfg_ok (g_cf g) -> sess_inv (g_ota g) ->
    logic orc clock g l = Ok (g', Some rl) ->
    exists m, decode l = Some m /\ gvalidate orc g m = true /\ exists x, rl = encode x /\
      ((m_type m <> 4 /\ m_type x <> 4) \/
       (m_type m = 4 /\ m_type x = 4 /\ m_node x = m_node m /\ known g (m_node m) = true /\
        exists k,
          (m_sub m = 0 /\ m_sub x = 1 /\
           (abs (g_ota g) (m_node m) = Requested k \/ abs (g_ota g) (m_node m) = Offered k)) \/
          (m_sub m = 2 /\ m_sub x = 3 /\
           (abs (g_ota g) (m_node m) = Offered k \/ abs (g_ota g) (m_node m) = Fetching k)))).
  Proof.
    intros C S E.
    destruct (decode l) as [m|] eqn:D.
    2:{ rewrite (rejected_is_noop orc clock g l (or_introl D)) in E. discriminate. }
    destruct (gvalidate orc g m) eqn:V.
    2:{ rewrite (rejected_is_noop orc clock g l) in E by eauto. discriminate. }
    exists m. split; [reflexivity|]. split; [exact V|]. destruct (Z.eq_dec (m_type m) 4) as [T|NT].
    - destruct (known g (m_node m)) eqn:K.
      2:{ rewrite (logic_stream_unknown orc clock g l m C D V T K) in E. discriminate. }
      destruct (stream_input m) as [i|] eqn:IN.
      2:{ rewrite (logic_stream_other orc clock g l m C D V T K IN) in E. discriminate. }
      destruct (logic_stream_request orc clock g l m i C S D V T K IN) as (g1 & EL & _). rewrite EL in E.
      destruct (offer_reply _ m _) as [[x|]|e] eqn:OR; cbn [bind option_map] in E; try discriminate.
      inversion E; subst g1 rl. exists x. split; [reflexivity|]. right.
      destruct (offer_reply_some _ _ _ _ _ OR) as (TX & NX & SH). apply stream_input_sub in IN.
      split; [exact T|]. split; [congruence|]. split; [exact NX|]. split; [reflexivity|].
      destruct SH as [(-> & SX & k & SK)|((k' & b & ->) & SX & k & SK)]; exists k; [left|right]; auto.
    - destruct (non_stream_reply orc clock g l m g' rl C D V NT E) as (x & -> & TX). exists x. auto.
  Qed.

  Lemma config_payload_ok g n t v f : Inv orc g ->
    (abs (g_ota g) n = Requested (t, v) \/ abs (g_ota g) n = Offered (t, v)) ->
    fw_lookup t v (o_fw (g_ota g)) = Some f ->
    fw_config_payload t v f = Ok (hexlify (le16 t ++ le16 v ++ le16 (fw_blocks f) ++ le16 (fw_crc f))).
  Proof.
    intros [_ (R & U & _ & FW)] AB LK.
    assert (W : word t /\ word v).
    { unfold abs in AB. destruct (zassoc n (o_requested (g_ota g))) as [k|] eqn:E1.
      - destruct AB as [AB|AB]; inversion AB; subst k. exact (zassoc_Forall _ _ _ _ R E1).
      - destruct (zassoc n (o_unstarted (g_ota g))) as [k|] eqn:E2.
        + destruct AB as [AB|AB]; inversion AB; subst k. exact (zassoc_Forall _ _ _ _ U E2).
        + destruct (zassoc n (o_started (g_ota g))), AB; discriminate. }
    apply fw_lookup_In in LK. unfold fws_ok in FW. rewrite Forall_forall in FW. specialize (FW _ LK).
    cbn [snd] in FW. destruct W as [Wt Wv]. destruct FW as [Wb Wc].
    unfold fw_config_payload. rewrite fw_int_to_hex_ok; [reflexivity|].
    unfold words_ok. cbn [forallb]. unfold word in *. rewrite Wt, Wv, Wb, Wc. reflexivity.
  Qed.

  Theorem restart g ns ft fv bin n k : SInv g ->
    update_key g ft fv bin = Some k -> zmem n ns = true -> known g n = true ->
    exists g', update_fw g ns ft fv bin = Ok g' /\ abs (g_ota g') n = Requested k /\ reboot_flag g' n = true.
  Proof.
    intros SI UK Z K. destruct (update_fw_foot g ns ft fv bin SI) as (g' & E & _ & _ & _ & SPEC).
    exists g'. split; [exact E|]. rewrite UK in SPEC. destruct k as [t v].
    destruct SPEC as (_ & P). destruct (P n) as [-> ->]. rewrite Z, K. split; reflexivity.
  Qed.
End Replies.

Lemma spec_restart s k : fst (sstep s (Update k)) = Requested k.
Proof. reflexivity. Qed.

Lemma spec_malformed s : sstep s Malformed = (s, NoOut).
Proof. reflexivity. Qed.
