(* Lemmas for C12 / C13.
   Naturality: every operation of the model commutes with a renaming g : T -> St of the saved states (no
   operation looks inside a state), so a statement checked for symbolic states (type [tag]) holds for every
   type of states and every old / new / stale state.
   Reductions: the number of writes w, event positions that hit no call and the number of lost directory
   operations reduce to finitely many cases (induction).
   The class the decoder raises on a partial / empty file does not matter once both handlers catch it, and both
   formats share one save program: the finite core is checked once, by verified enumeration (vm_compute), and
   lifted to the full statements.  Then the two mutations of the save program under which the crash statement
   fails, and the same scheme for start-up on damaged files (C13). *)
From Coq Require Import List Bool Arith NArith Lia String.
From PMS Require Import Base.PyStr Spec.AbstractFs Model.FsSave Model.FsCode Gen.SaveTrace Gen.DamageClasses.
Import ListNotations.
Local Open Scope nat_scope.

Section Naturality.
Context {T St : Type} (g : T -> St).

Definition hmap (h : handle T) : handle St := mkH (h_ino h) (cmap g (h_buf h)) (h_dirty h).
Definition msmap (st : mstate T) : mstate St :=
  mkM (fsmap g (m_fs st)) (option_map hmap (m_h st)) (m_need_save st) (m_exists st).
Definition rmap {A B} (f : A -> B) (r : lres A) : lres B :=
  match r with LOk a => LOk (f a) | LRaise e => LRaise e end.
Definition lsmap (st : lstate T) : lstate St :=
  mkLS (fsmap g (l_fs st)) (l_path st) (l_exists st) (map g (l_applied st)).

Lemma upd_nth_map : forall {A B} (F : A -> B) (f : A -> A) (f' : B -> B) l i,
  (forall x, f' (F x) = F (f x)) -> upd_nth (map F l) i f' = map F (upd_nth l i f).
Proof.
  intros A B F f f' l. induction l as [|x r IH]; intros i H; destruct i; simpl; auto.
  - now rewrite H.
  - now rewrite IH.
Qed.

Lemma fs_isfile_map : forall fs n, fs_isfile (fsmap g fs) n = fs_isfile fs n.
Proof. reflexivity. Qed.

Lemma fs_read_map : forall fs n, fs_read (fsmap g fs) n = option_map (cmap g) (fs_read fs n).
Proof.
  intros fs n. unfold fs_read. simpl. destruct (dget (dir fs) n); auto.
  rewrite nth_error_map. destruct (nth_error (inodes fs) n0); reflexivity.
Qed.

Lemma fs_file_map : forall fs n, fs_file (fsmap g fs) n = option_map (fmap g) (fs_file fs n).
Proof.
  intros fs n. unfold fs_file. simpl. destruct (dget (dir fs) n); auto. apply nth_error_map.
Qed.

Lemma fs_set_vol_map : forall fs i c, fs_set_vol (fsmap g fs) i (cmap g c) = fsmap g (fs_set_vol fs i c).
Proof.
  intros. unfold fs_set_vol, fs_upd_ino, fsmap. simpl. f_equal.
  apply upd_nth_map. reflexivity.
Qed.

Lemma fs_fsync_map : forall fs i, fs_fsync (fsmap g fs) i = fsmap g (fs_fsync fs i).
Proof.
  intros. unfold fs_fsync, fs_upd_ino, fsmap. simpl. f_equal. apply upd_nth_map. reflexivity.
Qed.

Lemma fs_open_trunc_map : forall fs n,
  fs_open_trunc (fsmap g fs) n = (fsmap g (fst (fs_open_trunc fs n)), snd (fs_open_trunc fs n)).
Proof.
  intros. unfold fs_open_trunc. simpl. destruct (dget (dir fs) n); simpl.
  - unfold fs_upd_ino, fsmap. simpl. f_equal. f_equal. apply upd_nth_map. reflexivity.
  - unfold fs_dirop, fsmap. simpl. rewrite map_length, map_app. reflexivity.
Qed.

Lemma fs_rename_map : forall fs a b, fs_rename (fsmap g fs) a b = option_map (fsmap g) (fs_rename fs a b).
Proof. intros. unfold fs_rename. simpl. destruct (dget (dir fs) a); reflexivity. Qed.

Lemma fs_remove_map : forall fs a, fs_remove (fsmap g fs) a = option_map (fsmap g) (fs_remove fs a).
Proof. intros. unfold fs_remove. simpl. destruct (dget (dir fs) a); reflexivity. Qed.

Lemma flush_h_map : forall st h, flush_h (msmap st) (hmap h) = msmap (flush_h st h).
Proof.
  intros. unfold flush_h. simpl. destruct (h_dirty h); auto.
  unfold msmap. simpl. rewrite fs_set_vol_map. reflexivity.
Qed.

Lemma do_act_map : forall new a st,
  do_act (g new) a (msmap st) = option_map msmap (do_act new a st).
Proof.
  intros new a st. destruct a; simpl; auto.
  - rewrite fs_open_trunc_map. destruct (fs_open_trunc (m_fs st) n). reflexivity.
  - destruct (m_h st) as [h|]; simpl; auto. unfold msmap. simpl.
    change (@CPartial St) with (cmap g (@CPartial T)). rewrite fs_set_vol_map.
    destruct last; reflexivity.
  - destruct (m_h st) as [h|]; simpl; auto. now rewrite flush_h_map.
  - destruct (m_h st) as [h|]; simpl; auto. unfold msmap. simpl. now rewrite fs_fsync_map.
  - destruct (m_h st) as [h|]; simpl; auto. rewrite flush_h_map. reflexivity.
  - rewrite fs_rename_map. destruct (fs_rename (m_fs st) a b); reflexivity.
  - rewrite fs_remove_map. destruct (fs_remove (m_fs st) a); reflexivity.
Qed.

Lemma fault_effect_map : forall a st, fault_effect a (msmap st) = msmap (fault_effect a st).
Proof. intros. destruct a; reflexivity. Qed.

Lemma run_acts_map : forall new evj acts j st,
  run_acts (g new) evj j acts (msmap st) =
  (msmap (fst (run_acts new evj j acts st)), snd (run_acts new evj j acts st)).
Proof.
  intros new evj acts. induction acts as [|a r IH]; intros j st; simpl; auto.
  destruct (match evj with Some (k, e) => if Nat.eqb e j then Some k else None | None => None end) as [[|]|].
  - reflexivity.
  - simpl. now rewrite fault_effect_map.
  - rewrite do_act_map. destruct (do_act new a st); simpl; auto.
Qed.

Lemma acts_of_map : forall w st i, acts_of w (msmap st) i = acts_of w st i.
Proof. intros. destruct i; reflexivity. Qed.

Lemma unwind_map : forall new i st, unwind (g new) i (msmap st) = msmap (unwind new i st).
Proof.
  intros. unfold unwind. destruct (i_with i).
  - rewrite do_act_map. destruct (do_act new AClose st); simpl; destruct (i_try i); reflexivity.
  - destruct (i_try i); reflexivity.
Qed.

Local Arguments run_acts : simpl never.
Local Arguments acts_of : simpl never.

Lemma exec_map : forall w new prog ev st,
  exec w (g new) ev prog (msmap st) =
  (msmap (fst (exec w new ev prog st)), snd (exec w new ev prog st)).
Proof.
  intros w new prog. induction prog as [|i rest IH]; intros ev st; simpl; auto.
  destruct (i_guard i && negb (m_exists st)); [apply IH|].
  destruct (i_op i) eqn:Eop;
    try (rewrite acts_of_map; rewrite run_acts_map;
         destruct (run_acts new (ev_here ev) 0 (acts_of w st _) st) as [st' [| |]]; simpl;
         [apply IH | now rewrite unwind_map | reflexivity]).
  - destruct (m_need_save st); [apply IH | reflexivity].
  - apply (IH (ev_next ev) (set_need_save st _)).
Qed.

Lemma half_map : forall c : content T, half (cmap g c) = cmap g (half c).
Proof. destruct c; reflexivity. Qed.

Lemma lose_map : forall l f, lose l (fmap g f) = fmap g (lose l f).
Proof.
  intros l f. unfold lose. simpl. destruct (f_dirty f); [destruct l|]; unfold synced, fmap; simpl;
    rewrite ?half_map; reflexivity.
Qed.

Lemma crash_lost_map : forall n l fs, crash_lost n l (fsmap g fs) = fsmap g (crash_lost n l fs).
Proof.
  intros. unfold crash_lost, crash_fs, fsmap. simpl. f_equal. rewrite !map_map.
  apply map_ext. intro f. apply lose_map.
Qed.

Lemma decode_map : forall ep ee c, decode ep ee (cmap g c) = rmap g (decode ep ee c).
Proof. destruct c; reflexivity. Qed.

Lemma load_sensors_map : forall ep ee prog isbak st,
  load_sensors ep ee prog isbak (lsmap st) =
  (lsmap (fst (load_sensors ep ee prog isbak st)), snd (load_sensors ep ee prog isbak st)).
Proof.
  intros ep ee prog isbak. induction prog as [|i rest IH]; intro st; simpl; auto.
  destruct ((l_guard i && negb (l_exists st)) || (l_bak i && negb isbak)); [apply IH|].
  destruct (l_op i).
  - apply (IH (mkLS (l_fs st) (l_path st) (fs_isfile (l_fs st) (l_path st)) (l_applied st))).
  - rewrite fs_rename_map. destruct (fs_rename (l_fs st) (l_path st) Main) as [fs'|]; simpl; auto.
    apply (IH (mkLS fs' (l_path st) (l_exists st) (l_applied st))).
  - apply (IH (mkLS (l_fs st) Main (l_exists st) (l_applied st))).
  - rewrite fs_read_map. destruct (fs_read (l_fs st) (l_path st)) as [c|]; simpl; auto.
    rewrite decode_map. destruct (decode ep ee c) as [s|e]; simpl; auto.
    specialize (IH (mkLS (l_fs st) (l_path st) (l_exists st) (l_applied st ++ [s]))).
    unfold lsmap in IH at 1. simpl in IH. rewrite map_app in IH. apply IH.
  - reflexivity.
Qed.

Lemma run_prims_map : forall ps fs, run_prims ps (fsmap g fs) = option_map (fsmap g) (run_prims ps fs).
Proof.
  induction ps as [|p r IH]; intro fs; simpl; auto.
  destruct p; auto.
  - rewrite fs_rename_map. destruct (fs_rename fs a b); simpl; auto.
  - rewrite fs_remove_map. destruct (fs_remove fs a); simpl; auto.
Qed.

Lemma safe_load_map : forall tab ep ee lp sl fs,
  safe_load tab ep ee lp sl (fsmap g fs) =
  (fsmap g (fst (safe_load tab ep ee lp sl fs)), rmap (map g) (snd (safe_load tab ep ee lp sl fs))).
Proof.
  intros. unfold safe_load.
  change (mkLS (fsmap g fs) Main false []) with (lsmap (mkLS fs Main false [])).
  rewrite load_sensors_map.
  destruct (load_sensors ep ee lp (name_eqb Main Bak) (mkLS fs Main false [])) as [st1 r1]. cbn [fst snd].
  destruct (match r1 with LOk b => inl b | LRaise e => _ end) as [[|]|e]; try reflexivity.
  change (mkLS (l_fs (lsmap st1)) (sl_fallback sl) false (l_applied (lsmap st1)))
    with (lsmap (mkLS (l_fs st1) (sl_fallback sl) false (l_applied st1))).
  rewrite load_sensors_map.
  destruct (load_sensors ep ee lp _ (mkLS (l_fs st1) _ _ _)) as [st2 r2]. cbn [fst snd].
  destruct r2 as [b|e]; [reflexivity|]. destruct (catches tab (sl_h2 sl) e); [|reflexivity].
  cbn [lsmap l_fs]. rewrite run_prims_map. destruct (run_prims (sl_h2_body sl) (l_fs st2)); reflexivity.
Qed.

End Naturality.

Section NatScn.
Context {T St : Type} (g : T -> St).

Definition amap (a : again T) : again St :=
  mkAgain (a_status a) (a_need_save a) (rmap (map g) (a_loaded a)).
Definition comap (o : crash_obs T) : crash_obs St :=
  mkCO (rmap (map g) (co_loaded o)) (co_cfg o) (amap (co_again o)).
Definition fomap (o : fault_obs T) : fault_obs St :=
  mkFO (fo_status o) (fo_need_save o) (option_map (fmap g) (fo_main o))
       (rmap (map g) (fo_loaded o)) (amap (fo_again o)).

Lemma add_file_map : forall fs n c, add_file (fsmap g fs) n (cmap g c) = fsmap g (add_file fs n c).
Proof. intros. unfold add_file, fsmap. simpl. rewrite map_length, map_app. reflexivity. Qed.

Lemma add_opt_map : forall fs n c,
  add_opt (fsmap g fs) n (option_map (cmap g) c) = fsmap g (add_opt fs n c).
Proof. intros. destruct c; simpl; [apply add_file_map | reflexivity]. Qed.

Lemma mk_prior_map : forall c old sb stt,
  mk_prior c (g old) (g sb) (g stt) = fsmap g (mk_prior c old sb stt).
Proof.
  intros [m b t] old sb stt. unfold mk_prior. cbn [c_main c_bak c_tmp].
  change (@empty_fs St) with (fsmap g (@empty_fs T)). rewrite <- !add_opt_map.
  f_equal; [f_equal; [f_equal; destruct m | destruct b as [[| |]|]] | destruct t as [[| |]|]]; reflexivity.
Qed.

Definition clmap (f : fclass T) : fclass St :=
  match f with FMissing => FMissing | FGood s => FGood (g s) | FBad e => FBad e end.

Lemma class_content_map : forall f : fclass T,
  class_content (match f with FMissing => FMissing | FGood s => FGood (g s) | FBad e => FBad e end)
  = option_map (cmap g) (class_content f).
Proof. destruct f; reflexivity. Qed.

Lemma mk_disk_map : forall m b t, mk_disk (clmap m) (clmap b) (clmap t) = fsmap g (mk_disk m b t).
Proof.
  intros m b t. unfold mk_disk, clmap. change (@empty_fs St) with (fsmap g (@empty_fs T)).
  rewrite !class_content_map, !add_opt_map. reflexivity.
Qed.

Lemma kind_of_map : forall c : content T, kind_of (cmap g c) = kind_of c.
Proof. destruct c; reflexivity. Qed.

Lemma cfg_of_map : forall fs, cfg_of (fsmap g fs) = cfg_of fs.
Proof.
  intros. unfold cfg_of. rewrite !fs_read_map.
  destruct (fs_read fs Main) as [[| | |]|], (fs_read fs Bak) as [cb|], (fs_read fs Tmp) as [ct|]; simpl;
    rewrite ?kind_of_map; reflexivity.
Qed.

Lemma loadf_map : forall P ep ee fs,
  loadf P ep ee (fsmap g fs) = (fsmap g (fst (loadf P ep ee fs)), rmap (map g) (snd (loadf P ep ee fs))).
Proof. intros. unfold loadf. apply safe_load_map. Qed.

Lemma save_again_map : forall P ep ee w2 next st,
  save_again P ep ee w2 (g next) (msmap g st) = amap (save_again P ep ee w2 next st).
Proof.
  intros. unfold save_again, save.
  change (set_need_save (msmap g st) true) with (msmap g (set_need_save st true)).
  rewrite exec_map. destruct (exec w2 next None (p_save P) (set_need_save st true)) as [st3 s3]. simpl.
  rewrite loadf_map. reflexivity.
Qed.

Lemma crash_scn_map : forall P c old new next sb stt w i j nlost l ep ee w2,
  crash_scn P c (g old) (g new) (g next) (g sb) (g stt) w i j nlost l ep ee w2
  = comap (crash_scn P c old new next sb stt w i j nlost l ep ee w2).
Proof.
  intros. unfold crash_scn, crash_scn_gen, save. rewrite mk_prior_map.
  change (fresh (fsmap g ?x)) with (msmap g (fresh x)).
  rewrite exec_map. simpl. rewrite crash_lost_map, loadf_map.
  destruct (loadf P ep ee (crash_lost nlost l _)) as [fs2 r]. simpl.
  rewrite cfg_of_map.
  change (fresh (fsmap g fs2)) with (msmap g (fresh fs2)). rewrite save_again_map. reflexivity.
Qed.

Lemma fault_scn_gen_map : forall P c old new next sb stt w ev ep ee w2,
  fault_scn_gen P c (g old) (g new) (g next) (g sb) (g stt) w ev ep ee w2
  = fomap (fault_scn_gen P c old new next sb stt w ev ep ee w2).
Proof.
  intros. unfold fault_scn_gen, save. rewrite mk_prior_map.
  change (fresh (fsmap g ?x)) with (msmap g (fresh x)).
  rewrite exec_map.
  destruct (exec w new ev (p_save P) (fresh (mk_prior c old sb stt))) as [st1 s1]. simpl.
  rewrite fs_file_map, loadf_map, save_again_map. reflexivity.
Qed.

End NatScn.

Section Collapse.
Context {St : Type}.
Implicit Types (st : mstate St).

Lemma upd_nth_idem : forall {A} (f : A -> A) l i,
  (forall x, f (f x) = f x) -> upd_nth (upd_nth l i f) i f = upd_nth l i f.
Proof.
  intros A f l. induction l as [|x r IH]; intros i H; destruct i; simpl; auto.
  - now rewrite H.
  - now rewrite IH.
Qed.

Lemma set_vol_idem : forall (fs : fsys St) i c, fs_set_vol (fs_set_vol fs i c) i c = fs_set_vol fs i c.
Proof.
  intros. unfold fs_set_vol, fs_upd_ino. simpl. f_equal. apply upd_nth_idem. reflexivity.
Qed.

(* a write forgets the chunk writes before it: after a chunk it acts as on the state before the chunk *)
Lemma chunk_absorbed : forall new st st1 b,
  do_act new (AWrite false) st = Some st1 -> do_act new (AWrite b) st1 = do_act new (AWrite b) st.
Proof.
  intros new st st1 b H. simpl in *. destruct (m_h st) as [h|]; [|discriminate].
  injection H as <-. simpl. rewrite set_vol_idem. reflexivity.
Qed.

Lemma write_fail : forall new st b b',
  do_act new (AWrite b) st = None -> do_act new (AWrite b') st = None.
Proof. intros new st b b'. unfold do_act. destruct (m_h st); [discriminate | reflexivity]. Qed.

Local Arguments do_act : simpl never.

(* the position of the event counts down along the calls; without event the index does not matter *)
Lemma run_acts_shift : forall new k acts e j st,
  run_acts new (Some (k, S e)) (S j) acts st = run_acts new (Some (k, e)) j acts st.
Proof.
  intros new k acts. induction acts as [|a r IH]; intros e j st; [reflexivity|].
  cbn [run_acts]. change (S e =? S j) with (e =? j). destruct (e =? j); [reflexivity|].
  destruct (do_act new a st); [apply IH | reflexivity].
Qed.

Lemma run_acts_none_shift : forall new acts k k' st,
  run_acts new None k acts st = run_acts new None k' acts st.
Proof.
  intros new acts. induction acts as [|a r IH]; intros k k' st; [reflexivity|].
  cbn [run_acts]. destruct (do_act new a st); [apply IH | reflexivity].
Qed.

(* the event hits a write (fault_effect is the identity on writes) *)
Definition ev_result (k : evkind) st : mstate St * status :=
  match k with EvCrash => (st, Crashed) | EvFault => (st, Raised) end.

Definition last_write new st : mstate St * status :=
  match do_act new (AWrite true) st with Some s => (s, Done) | None => (st, Raised) end.

Lemma last_write_chunk : forall new st st1,
  do_act new (AWrite false) st = Some st1 -> last_write new st1 = last_write new st.
Proof.
  intros new st st1 Hc. unfold last_write. rewrite (chunk_absorbed new st st1 true Hc).
  destruct (do_act new (AWrite true) st) eqn:Ht; [reflexivity|].
  rewrite (write_fail new st true false Ht) in Hc. discriminate.
Qed.

(* a dump of S n writes in closed form: the event hits the first write, one of the n later ones
   (all in the state after the first chunk), or nothing *)
Definition dump_result new (evj : option (evkind * nat)) (n : nat) st : mstate St * status :=
  match evj with
  | Some (k, O) => ev_result k st
  | Some (k, S e) =>
      match do_act new (AWrite false) st with
      | Some st1 => if e <? n then ev_result k st1 else last_write new st
      | None => (st, Raised)
      end
  | None => last_write new st
  end.

Lemma dump_run : forall new n evj st,
  run_acts new evj 0 (repeat (AWrite false) n ++ [AWrite true]) st = dump_result new evj n st.
Proof.
  intros new n. induction n as [|n IH]; intros evj st; cbn [repeat app run_acts].
  - destruct evj as [[k [|e]]|]; cbn [Nat.eqb dump_result]; try (destruct k; reflexivity); try reflexivity.
    destruct (do_act new (AWrite false) st) eqn:Hc; [reflexivity|].
    unfold last_write. rewrite (write_fail new st false true Hc). reflexivity.
  - destruct evj as [[k [|e]]|]; cbn [Nat.eqb dump_result]; try (destruct k; reflexivity).
    + destruct (do_act new (AWrite false) st) as [st1|] eqn:Hc; [|reflexivity].
      rewrite run_acts_shift, IH. destruct e as [|e]; [reflexivity|]. cbn [dump_result].
      rewrite (chunk_absorbed new st st1 false Hc), Hc, (last_write_chunk new st st1 Hc). reflexivity.
    + destruct (do_act new (AWrite false) st) as [st1|] eqn:Hc.
      * rewrite (run_acts_none_shift new _ 1 0), IH. apply (last_write_chunk new st st1 Hc).
      * unfold last_write. rewrite (write_fail new st false true Hc). reflexivity.
Qed.

(* Every number of writes w and every event behaves like one of finitely many events at w = 2: [clip] maps
   an event to that representative (position in a dump clipped by [clipj], None unless it hits a call). *)
Definition clipj (w e : nat) : nat := if e =? 0 then 0 else if e <? w then 1 else 2.
Definition clipj_ev (w : nat) (evj : option (evkind * nat)) : option (evkind * nat) :=
  match evj with Some (k, e) => Some (k, clipj w e) | None => None end.

Lemma dump_collapse : forall w new evj st, 1 <= w ->
  run_acts new evj 0 (dump_acts w) st = run_acts new (clipj_ev w evj) 0 (dump_acts 2) st.
Proof.
  intros [|n] new evj st Hw; [lia|]. unfold dump_acts. cbn [pred]. rewrite !dump_run.
  destruct evj as [[k [|e]]|]; cbn [clipj_ev clipj Nat.eqb dump_result]; try reflexivity.
  change (S e <? S n) with (e <? n). destruct (e <? n); reflexivity.
Qed.

Lemma run_acts_nofire : forall new k e acts j st,
  j + List.length acts <= e -> run_acts new (Some (k, e)) j acts st = run_acts new None j acts st.
Proof.
  intros new k e acts. induction acts as [|a r IH]; intros j st H; [reflexivity|].
  cbn [run_acts]. simpl List.length in H.
  replace (e =? j) with false by (symmetry; apply Nat.eqb_neq; lia).
  destruct (do_act new a st); [apply IH; lia | reflexivity].
Qed.

(* the most calls a statement makes when one dump is two writes *)
Definition nacts (op : instr) : nat :=
  match op with IDump | IPermCheck _ => 2 | IGuardNeedSave | ISetNeedSave _ => 0 | _ => 1 end.

Lemma acts_len : forall st op, List.length (acts_of 2 st op) <= nacts op.
Proof. intros st op. destruct op; unfold acts_of; try destruct (m_exists st); simpl; lia. Qed.

(* the event as statement op sees it when one dump is two writes: position clipped, gone if it hits no call *)
Definition hit (w : nat) (op : instr) (evj : option (evkind * nat)) : option (evkind * nat) :=
  match evj with
  | Some (k, j) =>
      let j' := match op with IDump => clipj w j | _ => j end in
      if j' <? nacts op then Some (k, j') else None
  | None => None
  end.

Lemma hit_acts : forall w new op evj st, 1 <= w ->
  run_acts new evj 0 (acts_of w st op) st = run_acts new (hit w op evj) 0 (acts_of 2 st op) st.
Proof.
  intros w new op evj st Hw.
  transitivity (run_acts new (match op with IDump => clipj_ev w evj | _ => evj end) 0 (acts_of 2 st op) st).
  - destruct op; try reflexivity. apply dump_collapse; exact Hw.
  - destruct evj as [[k j]|]; [|destruct op; reflexivity]. unfold hit.
    destruct (Nat.ltb_spec (match op with IDump => clipj w j | _ => j end) (nacts op)) as [_|H].
    + destruct op; reflexivity.
    + transitivity (run_acts new None 0 (acts_of 2 st op) st); [|reflexivity].
      pose proof (acts_len st op). destruct op; apply run_acts_nofire; simpl in *; lia.
Qed.

Definition bump (e : event) : event := mkEv (ev_kind e) (S (ev_i e)) (ev_j e).

Fixpoint clip (w : nat) (prog : list sinstr) (ev : option event) : option event :=
  match ev with
  | None => None
  | Some (mkEv k i j) =>
      match prog with
      | [] => None
      | ins :: rest =>
          match i with
          | O => option_map (fun kj => mkEv (fst kj) 0 (snd kj)) (hit w (i_op ins) (Some (k, j)))
          | S i' => option_map bump (clip w rest (Some (mkEv k i' j)))
          end
      end
  end.

Lemma clip_none : forall w prog, clip w prog None = None.
Proof. destruct prog; reflexivity. Qed.

Lemma clip_next : forall w ins rest ev, ev_next (clip w (ins :: rest) ev) = clip w rest (ev_next ev).
Proof.
  intros w ins rest [[k [|i] j]|]; cbn [clip ev_next]; rewrite ?clip_none; [| |reflexivity].
  - destruct (hit w (i_op ins) (Some (k, j))) as [[k' j']|]; reflexivity.
  - destruct (clip w rest (Some (mkEv k i j))) as [[k' i' j']|]; reflexivity.
Qed.

Lemma clip_here : forall w ins rest ev, ev_here (clip w (ins :: rest) ev) = hit w (i_op ins) (ev_here ev).
Proof.
  intros w ins rest [[k [|i] j]|]; cbn [clip ev_here]; [| |reflexivity].
  - destruct (hit w (i_op ins) (Some (k, j))) as [[k' j']|]; reflexivity.
  - destruct (clip w rest (Some (mkEv k i j))) as [[k' i' j']|]; reflexivity.
Qed.

Local Arguments run_acts : simpl never.
Local Arguments acts_of : simpl never.

Lemma exec_collapse : forall w new prog ev st, 1 <= w ->
  exec w new ev prog st = exec 2 new (clip w prog ev) prog st.
Proof.
  intros w new prog. induction prog as [|ins rest IH]; intros ev st Hw; [destruct ev as [[]|]; reflexivity|].
  cbn [exec]. rewrite clip_next, clip_here.
  destruct (i_guard ins && negb (m_exists st)); [now apply IH|].
  destruct (i_op ins) eqn:Eop;
    try (rewrite (hit_acts w new _ (ev_here ev) st Hw);
         match goal with |- context [run_acts ?a ?b ?c ?d ?e] =>
           destruct (run_acts a b c d e) as [st' [| |]] end; [now apply IH | reflexivity | reflexivity]).
  - destruct (m_need_save st); [now apply IH | reflexivity].
  - now apply IH.
Qed.

Lemma exec_none_collapse : forall w new prog st, 1 <= w ->
  exec w new None prog st = exec 2 new None prog st.
Proof. intros. now rewrite (exec_collapse w new prog None st), clip_none. Qed.

(* the events that hit a call: statement i, call j < nacts *)
Fixpoint events (k : evkind) (prog : list sinstr) : list event :=
  match prog with
  | [] => []
  | ins :: r => map (mkEv k 0) (seq 0 (nacts (i_op ins))) ++ map bump (events k r)
  end.

Definition all_events (k : evkind) (prog : list sinstr) : list (option event) := None :: map Some (events k prog).

Definition ev_is (k : evkind) (ev : option event) : Prop :=
  match ev with Some e => ev_kind e = k | None => True end.

Lemma clip_in : forall w k prog ev, ev_is k ev -> In (clip w prog ev) (all_events k prog).
Proof.
  intros w k.
  enough (H : forall prog ev, ev_is k ev ->
            match clip w prog ev with Some e => In e (events k prog) | None => True end).
  { intros prog ev Hk. specialize (H prog ev Hk). unfold all_events.
    destruct (clip w prog ev); [right; apply in_map; exact H | left; reflexivity]. }
  induction prog as [|ins rest IH]; intros [[k' [|i] j]|] Hk; simpl in Hk; subst; cbn [clip events]; auto.
  - unfold hit. destruct (Nat.ltb_spec (match i_op ins with IDump => clipj w j | _ => j end) (nacts (i_op ins)));
      cbn [option_map fst snd]; [|exact I].
    apply in_or_app; left. apply in_map, in_seq. lia.
  - specialize (IH (Some (mkEv k i j)) eq_refl). destruct (clip w rest (Some (mkEv k i j))) as [e|]; [|exact I].
    apply in_or_app; right. apply in_map, IH.
Qed.

Lemma event_reduce : forall w k ev prog, 1 <= w -> ev_is k ev ->
  exists ev', In ev' (all_events k prog) /\
    forall new st, exec w new ev prog st = exec 2 new ev' prog st.
Proof.
  intros w k ev prog Hw Hk. exists (clip w prog ev).
  split; [apply clip_in; exact Hk | intros; apply exec_collapse; exact Hw].
Qed.

(* losing more directory operations than were issued = losing all of them *)
Lemma crash_lost_min : forall nlost l (fs : fsys St),
  crash_lost nlost l fs = crash_lost (Nat.min nlost (List.length (dlog fs))) l fs.
Proof.
  intros. unfold crash_lost. f_equal. f_equal. lia.
Qed.

End Collapse.

Inductive tag := TOld | TNew | TNext | TSb | TSt.

Definition tags_eq_dec : forall a b : list tag, {a = b} + {a <> b}.
Proof. repeat decide equality. Defined.

Definition loaded_is (r : lres (list tag)) (l : list tag) : bool :=
  match r with LOk x => if tags_eq_dec x l then true else false | LRaise _ => false end.
Lemma loaded_is_eq : forall r l, loaded_is r l = true -> r = LOk l.
Proof. intros [x|e] l; simpl; [destruct (tags_eq_dec x l); congruence | discriminate]. Qed.

Definition again_ok (a : again tag) : bool :=
  match a_status a with Done => true | _ => false end && negb (a_need_save a) && loaded_is (a_loaded a) [TNext].

Lemma again_ok_spec : forall a, again_ok a = true -> again_spec TNext a.
Proof.
  intros a H. unfold again_ok in H. apply andb_true_iff in H as [H H3]. apply andb_true_iff in H as [H1 H2].
  repeat split.
  - destruct (a_status a); congruence.
  - now destruct (a_need_save a).
  - now apply loaded_is_eq.
Qed.

Definition old_or_nothing (c : cfg) : list tag := if c_main c then [TOld] else [].

Lemma new_or_old_eq : forall c r, loaded_is r [TNew] || loaded_is r (old_or_nothing c) = true ->
  r = LOk [TNew] \/ r = LOk (if c_main c then [TOld] else []).
Proof.
  intros c r H. apply orb_true_iff in H as [H|H]; apply loaded_is_eq in H; [left; exact H | right].
  rewrite H. unfold old_or_nothing. destruct (c_main c); reflexivity.
Qed.

Definition crash_ok (c : cfg) (o : crash_obs tag) : bool :=
  (loaded_is (co_loaded o) [TNew] || loaded_is (co_loaded o) (old_or_nothing c))
  && match co_cfg o with Some c' => cfg_valid c' | None => false end
  && again_ok (co_again o).

Lemma crash_ok_spec : forall c o, crash_ok c o = true -> crash_spec c TOld TNew TNext o.
Proof.
  intros c o H. unfold crash_ok in H. apply andb_true_iff in H as [H H3]. apply andb_true_iff in H as [H1 H2].
  split; [|split].
  - now apply new_or_old_eq.
  - destruct (co_cfg o) as [c'|]; [eauto | discriminate].
  - now apply again_ok_spec.
Qed.

Definition file_is_new (f : option (file tag)) : bool :=
  match f with Some (mkFile (CGood TNew) (CGood TNew) false) => true | _ => false end.
Lemma file_is_new_eq : forall f, file_is_new f = true -> f = Some (synced (CGood TNew)).
Proof.
  intros [[[[| | | |]| | |] [[| | | |]| | |] [|]]|]; simpl; try discriminate. reflexivity.
Qed.

Definition fault_ok (c : cfg) (o : fault_obs tag) : bool :=
  match fo_status o with Crashed => false | Raised => fo_need_save o | Done => true end
  && (fo_need_save o || file_is_new (fo_main o))
  && (loaded_is (fo_loaded o) [TNew] || loaded_is (fo_loaded o) (old_or_nothing c))
  && again_ok (fo_again o).

Lemma fault_ok_spec : forall c o, fault_ok c o = true -> fault_spec c TOld TNew TNext o.
Proof.
  intros c o H. unfold fault_ok in H.
  apply andb_true_iff in H as [H H4]. apply andb_true_iff in H as [H H3]. apply andb_true_iff in H as [H1 H2].
  split; [|split; [|split; [|split]]].
  - destruct (fo_status o); congruence.
  - intro E. now rewrite E in H1.
  - intro E. rewrite E in H2. simpl in H2. now apply file_is_new_eq.
  - now apply new_or_old_eq.
  - now apply again_ok_spec.
Qed.

(* transport of the specifications along a renaming of states *)
Section Transport.
Context {St : Type} (g : tag -> St).

Lemma again_spec_map : forall a, again_spec TNext a -> again_spec (g TNext) (amap g a).
Proof. intros a (H1 & H2 & H3). repeat split; simpl; auto. now rewrite H3. Qed.

Lemma crash_spec_map : forall c o,
  crash_spec c TOld TNew TNext o -> crash_spec c (g TOld) (g TNew) (g TNext) (comap g o).
Proof.
  intros c o (H1 & H2 & H3). split; [|split]; simpl; auto.
  - destruct H1 as [H1|H1]; rewrite H1; simpl; auto; right; destruct (c_main c); reflexivity.
  - now apply again_spec_map.
Qed.

Lemma fault_spec_map : forall c o,
  fault_spec c TOld TNew TNext o -> fault_spec c (g TOld) (g TNew) (g TNext) (fomap g o).
Proof.
  intros c o (H1 & H2 & H3 & H4 & H5). split; [|split; [|split; [|split]]]; simpl; auto.
  - intro E. rewrite (H3 E). reflexivity.
  - destruct H4 as [H4|H4]; rewrite H4; simpl; auto; right; destruct (c_main c); reflexivity.
  - now apply again_spec_map.
Qed.
End Transport.

Lemma all_kinds_complete : forall k, In k all_kinds.
Proof. intros [[| |]|]; simpl; tauto. Qed.

Lemma all_cfgs_complete : forall c, cfg_valid c = true -> In c all_cfgs.
Proof.
  intros [[|] b t] H; unfold all_cfgs; apply in_or_app.
  - right. apply in_flat_map. exists b. split; [|apply in_map]; apply all_kinds_complete.
  - left. destruct b; [discriminate H|]. apply in_map, all_kinds_complete.
Qed.

Section Caught.
Context {St : Type} (tab : list (cls * list cls)) (sl : safe_load_shape).

Definition caught (e : cls) : bool := catches tab (sl_h1 sl) e && catches tab (sl_h2 sl) e.

Lemma caught_h1 : forall e, caught e = true -> catches tab (sl_h1 sl) e = true.
Proof. intros e H. now apply andb_true_iff in H. Qed.
Lemma caught_h2 : forall e, caught e = true -> catches tab (sl_h2 sl) e = true.
Proof. intros e H. now apply andb_true_iff in H. Qed.

(* the same result, or two caught classes *)
Inductive rsim {A} : lres A -> lres A -> Prop :=
| rsim_same r : rsim r r
| rsim_caught e e' : caught e = true -> caught e' = true -> rsim (LRaise e) (LRaise e').
Local Hint Constructors rsim : core.

Context (ep ee ep' ee' : cls)
        (Hep : caught ep = true) (Hee : caught ee = true) (Hep' : caught ep' = true) (Hee' : caught ee' = true).

Lemma load_sensors_sim : forall prog isbak (st : lstate St),
  fst (load_sensors ep ee prog isbak st) = fst (load_sensors ep' ee' prog isbak st) /\
  rsim (snd (load_sensors ep ee prog isbak st)) (snd (load_sensors ep' ee' prog isbak st)).
Proof.
  induction prog as [|i rest IH]; intros isbak st; simpl; [auto|].
  destruct ((l_guard i && negb (l_exists st)) || (l_bak i && negb isbak)); [apply IH|].
  destruct (l_op i); try apply IH; simpl; auto.
  - destruct (fs_rename (l_fs st) (l_path st) Main); [apply IH | simpl; auto].
  - destruct (fs_read (l_fs st) (l_path st)) as [[s| | |e]|]; simpl; auto.
Qed.

(* both attempts of safe_load_sensors end the same way: the handlers ask only whether the class is caught *)
Lemma safe_load_sim : forall lp (fs : fsys St),
  safe_load tab ep ee lp sl fs = safe_load tab ep' ee' lp sl fs.
Proof.
  intros lp fs. unfold safe_load.
  destruct (load_sensors_sim lp (name_eqb Main Bak) (mkLS fs Main false [])) as [E R].
  destruct (load_sensors ep ee lp _ _) as [st1 r1], (load_sensors ep' ee' lp _ _) as [st1' r1'].
  simpl in E, R. subst st1'. cbv zeta.
  destruct R as [[[|]|e]|e e' C C']; try reflexivity;
    [| destruct (catches tab (sl_h1 sl) e); [|reflexivity] | rewrite (caught_h1 _ C), (caught_h1 _ C')].
  all: destruct (load_sensors_sim lp (name_eqb (sl_fallback sl) Bak)
                   (mkLS (l_fs st1) (sl_fallback sl) false (l_applied st1))) as [E2 R2];
    destruct (load_sensors ep ee lp _ _) as [st2 r2], (load_sensors ep' ee' lp _ _) as [st2' r2'];
    simpl in E2, R2; subst st2'; destruct R2 as [r2|e2 e2' C2 C2']; [reflexivity|];
    rewrite (caught_h2 _ C2), (caught_h2 _ C2'); reflexivity.
Qed.
End Caught.

Definition caught_by (P : progs) : cls -> bool := caught (p_tab P) (p_sl P).

(* one caught class stands for all of them *)
Lemma loadf_caught : forall {St} (P : progs) e ep ee (fs : fsys St),
  caught_by P e = true -> caught_by P ep = true -> caught_by P ee = true ->
  loadf P ep ee fs = loadf P e e fs.
Proof. intros St P e ep ee fs He Hep Hee. apply safe_load_sim; assumption. Qed.

Lemma save_again_caught : forall {St} (P : progs) e ep ee w2 (next : St) st,
  caught_by P e = true -> caught_by P ep = true -> caught_by P ee = true -> 1 <= w2 ->
  save_again P ep ee w2 next st = save_again P e e 2 next st.
Proof.
  intros St P e ep ee w2 next st He Hep Hee Hw. unfold save_again, save.
  rewrite exec_none_collapse by exact Hw.
  destruct (exec 2 next None (p_save P) (set_need_save st true)) as [st3 s3].
  now rewrite (loadf_caught P e ep ee).
Qed.

(* unsynced data can only be lost where an inode is dirty *)
Definition losses (fs : fsys tag) : list loss :=
  if existsb f_dirty (inodes fs) then [LoseAll; LoseHalf; LoseNone] else [LoseAll].

Lemma losses_complete : forall l (fs : fsys tag),
  exists l', In l' (losses fs) /\ forall n, crash_lost n l fs = crash_lost n l' fs.
Proof.
  intros l fs. unfold losses. destruct (existsb f_dirty (inodes fs)) eqn:E.
  - exists l. split; [destruct l; simpl; auto | reflexivity].
  - exists LoseAll. split; [left; reflexivity|]. intro n. unfold crash_lost, crash_fs. f_equal.
    apply map_ext_in. intros f Hf. unfold lose.
    destruct (f_dirty f) eqn:D; [|reflexivity].
    assert (existsb f_dirty (inodes fs) = true) by (apply existsb_exists; eauto). congruence.
Qed.

Definition crash_check (P : progs) (e : cls) : bool :=
  forallb (fun c => forallb (fun ev =>
    let fs1 := m_fs (fst (save 2 TNew ev (p_save P) (fresh (mk_prior c TOld TSb TSt)))) in
    forallb (fun nl => forallb (fun l =>
      let '(fs2, r) := loadf P e e (crash_lost nl l fs1) in
      crash_ok c (mkCO r (cfg_of fs2) (save_again P e e 2 TNext (fresh fs2))))
      (losses fs1)) (seq 0 (S (List.length (dlog fs1)))))
    (all_events EvCrash (p_save P))) all_cfgs.

Definition gtag {St} (old new next sb stt : St) (t : tag) : St :=
  match t with TOld => old | TNew => new | TNext => next | TSb => sb | TSt => stt end.

Lemma crash_check_sound : forall P e, caught_by P e = true -> crash_check P e = true ->
  forall (St : Type) (old new next sb stt : St) c w i j nlost l ep ee w2,
    cfg_valid c = true -> 1 <= w -> 1 <= w2 -> caught_by P ep = true -> caught_by P ee = true ->
    crash_spec c old new next (crash_scn P c old new next sb stt w i j nlost l ep ee w2).
Proof.
  intros P e He Hchk St old new next sb stt c w i j nlost l ep ee w2 Hc Hw Hw2 Hep Hee.
  rewrite (crash_scn_map (gtag old new next sb stt) P c TOld TNew TNext TSb TSt).
  apply (crash_spec_map (gtag old new next sb stt)).
  destruct (@event_reduce tag w EvCrash _ (p_save P) Hw (eq_refl : ev_is _ (Some (mkEv _ i j)))) as (ev' & Hin & Hev).
  unfold crash_scn, crash_scn_gen, save. rewrite Hev.
  unfold crash_check in Hchk.
  rewrite forallb_forall in Hchk. specialize (Hchk c (all_cfgs_complete c Hc)).
  rewrite forallb_forall in Hchk. specialize (Hchk ev' Hin). cbv zeta in Hchk. unfold save in Hchk.
  set (fs1 := m_fs (fst (exec 2 TNew ev' (p_save P) (fresh (mk_prior c TOld TSb TSt))))) in *.
  rewrite crash_lost_min. destruct (losses_complete l fs1) as (l' & Hl & ->).
  rewrite forallb_forall in Hchk.
  specialize (Hchk (Nat.min nlost (List.length (dlog fs1))) ltac:(apply in_seq; lia)).
  rewrite forallb_forall in Hchk. specialize (Hchk l' Hl).
  rewrite (loadf_caught P e ep ee) by assumption.
  destruct (loadf P e e _) as [fs2 r].
  rewrite (save_again_caught P e ep ee w2) by assumption. now apply crash_ok_spec.
Qed.

Definition fault_check (P : progs) (e : cls) : bool :=
  forallb (fun c => forallb (fun ev =>
      fault_ok c (fault_scn_gen P c TOld TNew TNext TSb TSt 2 ev e e 2))
    (all_events EvFault (p_save P))) all_cfgs.

Lemma fault_check_sound : forall P e, caught_by P e = true -> fault_check P e = true ->
  forall (St : Type) (old new next sb stt : St) c w ev ep ee w2, ev_is EvFault ev ->
    cfg_valid c = true -> 1 <= w -> 1 <= w2 -> caught_by P ep = true -> caught_by P ee = true ->
    fault_spec c old new next (fault_scn_gen P c old new next sb stt w ev ep ee w2).
Proof.
  intros P e He Hchk St old new next sb stt c w ev ep ee w2 Hev Hc Hw Hw2 Hep Hee.
  rewrite (fault_scn_gen_map (gtag old new next sb stt) P c TOld TNew TNext TSb TSt).
  apply (fault_spec_map (gtag old new next sb stt)).
  destruct (@event_reduce tag w EvFault ev (p_save P) Hw Hev) as (ev' & Hin & Hev').
  unfold fault_check in Hchk.
  rewrite forallb_forall in Hchk. specialize (Hchk c (all_cfgs_complete c Hc)).
  rewrite forallb_forall in Hchk. specialize (Hchk ev' Hin).
  apply fault_ok_spec in Hchk.
  unfold fault_scn_gen, save in *. rewrite Hev'.
  destruct (exec 2 TNew ev' (p_save P) (fresh (mk_prior c TOld TSb TSt))) as [st1 s1].
  rewrite (loadf_caught P e ep ee), (save_again_caught P e ep ee w2) by assumption. exact Hchk.
Qed.

(* the finite checks, on the generated programs (Gen/SaveTrace.v, Gen/DamageClasses.v) *)
Definition c_main_only : cfg := mkCfg true None None.
Definition e_json : cls := hd [] (damage_of Json).

(* the measured decoder failure classes are caught by both handlers of safe_load_sensors *)
Lemma damage_caught : forall f e, In e (damage_of f) -> caught_by (code f) e = true.
Proof. intros f. apply forallb_forall. destruct f; vm_compute; reflexivity. Qed.

(* _save_json and _save_pickle have the same shape: one check serves both formats *)
Lemma code_json : forall f, code f = code Json.
Proof. intros [|]; reflexivity. Qed.

Lemma crash_check_code : crash_check (code Json) e_json = true.
Proof. vm_compute. reflexivity. Qed.
Lemma fault_check_code : fault_check (code Json) e_json = true.
Proof. vm_compute. reflexivity. Qed.

Lemma crash_atomic : forall (f : fmt) (St : Type) (old new next sb stt : St) c w i j nlost l ep ee w2,
  cfg_valid c = true -> 1 <= w -> 1 <= w2 -> In ep (damage_of f) -> In ee (damage_of f) ->
  crash_spec c old new next (crash_scn (code f) c old new next sb stt w i j nlost l ep ee w2).
Proof.
  intros f St old new next sb stt c w i j nlost l ep ee w2 Hc Hw Hw2 Hep Hee.
  apply (damage_caught f) in Hep, Hee. rewrite code_json in *.
  now apply (crash_check_sound _ e_json (damage_caught Json _ (or_introl eq_refl)) crash_check_code).
Qed.

Lemma fault_atomic_ev : forall (f : fmt) (St : Type) (old new next sb stt : St) c w ev ep ee w2,
  ev_is EvFault ev -> cfg_valid c = true -> 1 <= w -> 1 <= w2 -> In ep (damage_of f) -> In ee (damage_of f) ->
  fault_spec c old new next (fault_scn_gen (code f) c old new next sb stt w ev ep ee w2).
Proof.
  intros f St old new next sb stt c w ev ep ee w2 Hev Hc Hw Hw2 Hep Hee.
  apply (damage_caught f) in Hep, Hee. rewrite code_json in *.
  now apply (fault_check_sound _ e_json (damage_caught Json _ (or_introl eq_refl)) fault_check_code).
Qed.

Lemma fault_atomic : forall (f : fmt) (St : Type) (old new next sb stt : St) c w i j ep ee w2,
  cfg_valid c = true -> 1 <= w -> 1 <= w2 -> In ep (damage_of f) -> In ee (damage_of f) ->
  fault_spec c old new next (fault_scn (code f) c old new next sb stt w i j ep ee w2).
Proof. intros. now apply fault_atomic_ev. Qed.

(* two mutations of the save program under which the crash statement fails *)
(* without os.fsync: the save returns, the machine dies before the data reached the disk *)
Lemma fsync_needed :
  ~ crash_spec c_main_only TOld TNew TNext
      (crash_scn (with_save (code Json) (drop_fsync (save_prog_of Json)))
                 c_main_only TOld TNew TNext TSb TSt 1 99 0 0 LoseAll e_json e_json 1).
Proof. intros [H _]. vm_compute in H. destruct H as [H|H]; discriminate H. Qed.

Lemma fsync_needed_loads_nothing :
  co_loaded (crash_scn (with_save (code Json) (drop_fsync (save_prog_of Json)))
                       c_main_only TOld TNew TNext TSb TSt 1 99 0 0 LoseAll e_json e_json 1) = LOk [].
Proof. vm_compute. reflexivity. Qed.

(* renames swapped: `rename Tmp Main` destroys the old file, `rename Main Bak` then moves the NEW
   file aside and `remove Bak` deletes it: once the save has run, nothing is left to load *)
Lemma order_needed :
  exists i j nlost l,
  ~ crash_spec c_main_only TOld TNew TNext
      (crash_scn (with_save (code Json) (swap_renames (save_prog_of Json)))
                 c_main_only TOld TNew TNext TSb TSt 1 i j nlost l e_json e_json 1).
Proof.
  exists 99, 0, 0, LoseAll. intros [H _]. vm_compute in H. destruct H as [H|H]; discriminate H.
Qed.

Definition tag_classes (dmg : list cls) (s : tag) : list (fclass tag) := FMissing :: FGood s :: map FBad dmg.

Definition load_ok (P : progs) (e : cls) (m b t : fclass tag) : bool :=
  let '(fs2, r) := loadf P e e (mk_disk m b t) in
  loaded_is r (expected_load m b) && again_ok (save_again P e e 2 TNext (fresh fs2)).

Definition load_check (P : progs) (e : cls) (dmg : list cls) : bool :=
  forallb (fun m => forallb (fun b => forallb (fun t => load_ok P e m b t)
    (tag_classes dmg TSt)) (tag_classes dmg TSb)) (tag_classes dmg TOld).

Definition tagc {St} (s : tag) (f : fclass St) : fclass tag :=
  match f with FMissing => FMissing | FGood _ => FGood s | FBad e => FBad e end.
Definition state_or {St} (d : St) (f : fclass St) : St := match f with FGood s => s | _ => d end.

Lemma tagc_in : forall {St} dmg s (f : fclass St), class_ok dmg f -> In (tagc s f) (tag_classes dmg s).
Proof.
  intros St dmg s [|x|e] H; simpl; auto. right. right. now apply in_map.
Qed.

Lemma load_check_sound : forall P e dmg, caught_by P e = true -> load_check P e dmg = true ->
  forall (St : Type) (next : St) (m b t : fclass St) ep ee w,
    class_ok dmg m -> class_ok dmg b -> class_ok dmg t ->
    caught_by P ep = true -> caught_by P ee = true -> 1 <= w ->
    snd (loadf P ep ee (mk_disk m b t)) = LOk (expected_load m b) /\
    again_spec next (save_again P ep ee w next (fresh (fst (loadf P ep ee (mk_disk m b t))))).
Proof.
  intros P e dmg He Hchk St next m b t ep ee w Hm Hb Ht Hep Hee Hw.
  (* the check speaks of the tags TOld / TSb / TSt in the three files: send each back to the state its file
     holds, and to the default next where the file holds none *)
  set (g := gtag (state_or next m) next next (state_or next b) (state_or next t)).
  set (m' := tagc TOld m). set (b' := tagc TSb b). set (t' := tagc TSt t).
  assert (Ed : mk_disk m b t = fsmap g (mk_disk m' b' t')).
  { rewrite <- mk_disk_map. f_equal; [destruct m | destruct b | destruct t]; reflexivity. }
  assert (Ex : expected_load m b = map g (expected_load m' b')) by (destruct m, b; reflexivity).
  rewrite (loadf_caught P e ep ee), (save_again_caught P e ep ee w) by assumption.
  rewrite Ed, Ex, loadf_map. simpl fst. simpl snd.
  unfold load_check in Hchk.
  rewrite forallb_forall in Hchk. specialize (Hchk _ (tagc_in dmg TOld m Hm)).
  rewrite forallb_forall in Hchk. specialize (Hchk _ (tagc_in dmg TSb b Hb)).
  rewrite forallb_forall in Hchk. specialize (Hchk _ (tagc_in dmg TSt t Ht)).
  unfold load_ok in Hchk. fold m' b' t' in Hchk.
  destruct (loadf P e e (mk_disk m' b' t')) as [fs2 r]. simpl.
  apply andb_true_iff in Hchk as [H1 H2]. split.
  - apply loaded_is_eq in H1. rewrite H1. reflexivity.
  - change (fresh (fsmap g fs2)) with (msmap g (fresh fs2)).
    change next with (g TNext). rewrite save_again_map. apply again_spec_map. now apply again_ok_spec.
Qed.

Lemma load_check_code : forall f, load_check (code Json) e_json (damage_of f) = true.
Proof. intros [|]; vm_compute; reflexivity. Qed.

Lemma load_total : forall (f : fmt) (St : Type) (next : St) (m b t : fclass St) ep ee w,
  class_ok (damage_of f) m -> class_ok (damage_of f) b -> class_ok (damage_of f) t ->
  In ep (damage_of f) -> In ee (damage_of f) -> 1 <= w ->
  snd (loadf (code f) ep ee (mk_disk m b t)) = LOk (expected_load m b) /\
  again_spec next (save_again (code f) ep ee w next (fresh (fst (loadf (code f) ep ee (mk_disk m b t))))).
Proof.
  intros f St next m b t ep ee w Hm Hb Ht Hep Hee Hw.
  apply (damage_caught f) in Hep, Hee. rewrite code_json in *.
  now apply (load_check_sound _ e_json _ (damage_caught Json _ (or_introl eq_refl)) (load_check_code f)).
Qed.

Lemma safe_load_total : forall (f : fmt) (St : Type) (next : St) (m b t : fclass St) (ep ee : cls),
  class_ok (damage_of f) m -> class_ok (damage_of f) b -> class_ok (damage_of f) t ->
  In ep (damage_of f) -> In ee (damage_of f) ->
  snd (loadf (code f) ep ee (mk_disk m b t)) = LOk (expected_load m b).
Proof. intros. now apply (load_total f St next m b t ep ee 1). Qed.

Lemma after_load_consistent : forall (f : fmt) (St : Type) (next : St) (m b t : fclass St) (ep ee : cls) (w : nat),
  class_ok (damage_of f) m -> class_ok (damage_of f) b -> class_ok (damage_of f) t ->
  In ep (damage_of f) -> In ee (damage_of f) -> 1 <= w ->
  again_spec next (save_again (code f) ep ee w next (fresh (fst (loadf (code f) ep ee (mk_disk m b t))))).
Proof. intros. now apply (load_total f St next m b t ep ee w). Qed.
