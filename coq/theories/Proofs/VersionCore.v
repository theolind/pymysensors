(* The version verdicts of the core machine (Model/Oracles.v: orc_version, orc_const) on
   dotted numeric strings, read numerically and independently of the oracle tables:
   C03 (a node presentation validates iff its payload is numerically >= 1.4) and
   C04 (the version a node holds / the table it is served with). *)
From Coq Require Import List NArith ZArith Bool String Lia.
From PMS Require Import Base.PyStr Base.PyInt Base.Version Model.Codec Model.Rules Model.TableTypes
  Gen.Tables Model.Validate Model.Oracles Model.Gateway Spec.SerialApi
  Proofs.ValidateProofs Proofs.VersionProofs.
Import ListNotations.
Open Scope list_scope.

Lemma orc_version_numeric o p : dotted_numeric p = true ->
  orc_version o p = num_ge (sections p) [1; 4]%N.
Proof. intro D. unfold orc_version. rewrite D. apply ver_ge14_num. Qed.

Lemma orc_const_numeric o p : dotted_numeric p = true ->
  orc_const o p = floor_index (sections p).
Proof. intro D. unfold orc_const. rewrite D. apply const_index_floor. Qed.

(* on every string: the machine's verdict is the numeric rule, the table only decides the rest *)
Lemma orc_version_rule o p : orc_version o p = version_rule (orc_version o) p.
Proof.
  unfold version_rule. destruct (dotted_numeric p) eqn:D; [|reflexivity].
  apply orc_version_numeric. exact D.
Qed.

(* the spec only looks at the version verdict pointwise *)
Lemma in_class_ext f g fl k p : (forall q, f q = g q) -> in_class f fl k p = in_class g fl k p.
Proof. intro E. destruct k; try reflexivity. cbn [in_class]. apply E. Qed.

Lemma spec_accepts_ext f g fl v n c t a s p : (forall q, f q = g q) ->
  spec_accepts f fl v n c t a s p = spec_accepts g fl v n c t a s p.
Proof. intro E. unfold spec_accepts. rewrite (in_class_ext f g fl _ p E). reflexivity. Qed.

(* C04: the version held for a node, the table it is served with *)
Lemma nth_ver {A} (a b c d e : A) v :
  nth (ver_index v) [a; b; c; d; e] a = match v with V14 => a | V15 => b | V20 => c | V21 => d | V22 => e end.
Proof. destruct v; reflexivity. Qed.

Lemma floor_index_ver l : floor_index l = ver_index (floor_ver l).
Proof.
  unfold floor_index, floor_ver.
  destruct (num_ge l [2; 2]%N), (num_ge l [2; 1]%N), (num_ge l [2; 0]%N), (num_ge l [1; 5]%N);
    reflexivity.
Qed.

(* through nth_ver the tables are compared as names: unfolding them is dear to check *)
Lemma tab_of_floor l : nth (floor_index l) all_tabs tab_14 = tab_of (floor_ver l).
Proof. rewrite floor_index_ver. exact (nth_ver tab_14 tab_15 tab_20 tab_21 tab_22 _). Qed.

Theorem safe_version_numeric o p : dotted_numeric p = true ->
  safe_version o p = if num_ge (sections p) [1; 4]%N then p else s2p "1.4".
Proof. intro D. unfold safe_version. rewrite (orc_version_numeric o p D). reflexivity. Qed.

Theorem node_tab_numeric o nd : dotted_numeric (n_pver nd) = true ->
  node_tab o nd = tab_of (floor_ver (sections (n_pver nd))).
Proof.
  intro D. unfold node_tab. rewrite (orc_const_numeric o _ D). apply tab_of_floor.
Qed.

(* floor_ver is the floor among the five supported versions *)
Theorem floor_ver_spec l :
  (num_ge l [1; 4]%N = true ->
     num_ge l (ver_sections (floor_ver l)) = true /\
     forall v, num_ge l (ver_sections v) = true -> (ver_index v <= ver_index (floor_ver l))%nat) /\
  (num_ge l [1; 4]%N = false -> floor_ver l = V14).
Proof.
  unfold floor_ver.
  destruct (num_ge l [2; 2]%N) eqn:E22; [|destruct (num_ge l [2; 1]%N) eqn:E21;
    [|destruct (num_ge l [2; 0]%N) eqn:E20; [|destruct (num_ge l [1; 5]%N) eqn:E15]]].
  all: split;
    [intro H14; split; [cbn [ver_sections]; assumption|];
     intros [] Hv; cbn [ver_sections ver_index] in *; solve [lia | congruence]
    |intro F; first [reflexivity|enough (num_ge l [1; 4]%N = true) by congruence;
                              eapply num_ge_trans; [eassumption|reflexivity]]].
Qed.
