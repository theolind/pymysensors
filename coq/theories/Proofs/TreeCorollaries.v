(* C04: callback exactness, setters, and the readable corollaries of the tree meaning. *)
From Coq Require Import List NArith ZArith Bool String Lia.
From PMS Require Import Base.PyStr Base.PyInt Base.Exn Model.Codec Model.Rules Model.TableTypes
  Gen.Tables Model.Validate Model.Hex Model.Ota Model.Oracles Model.Gateway Spec.SerialApi
  Proofs.PyStrFacts Proofs.PyIntFacts Proofs.CodecProofs Proofs.ValidateProofs Proofs.GwLemmas Proofs.GwInv
  Spec.TreeMeaning Proofs.TreeProofs Proofs.TreeHistory Proofs.IdProofs.
Import ListNotations.
Open Scope string_scope.
Open Scope list_scope.
Open Scope Z_scope.

(* the two kinds that add a node, read back to the header *)
Lemma kind_of_adds v m :
  (kind_of v m = KNodePres -> m_type m = 0 /\ m_child m = 255) /\
  (kind_of v m = KIdRequest -> m_type m = 3 /\ m_sub m = 3).
Proof.
  unfold kind_of, internal_kind.
  destruct (Z.eqb_spec (m_type m) 0); [destruct (Z.eqb_spec (m_child m) 255); split; auto; discriminate|].
  destruct (m_type m =? 1); [split; discriminate|].
  destruct (Z.eqb_spec (m_type m) 3);
    [|destruct (m_type m =? 4); [destruct ((m_sub m =? 0) || (m_sub m =? 2))|]; split; discriminate].
  destruct (m_sub m =? 0); [split; discriminate|].
  destruct (Z.eqb_spec (m_sub m) 3); [split; [discriminate|auto]|].
  destruct (m_sub m =? 11), (m_sub m =? 12), (m_sub m =? 14), (m_sub m =? 22), v; split; discriminate.
Qed.

(* lookups under the tree operations *)
Lemma zassoc_tupd n k f t :
  zassoc n (tupd k f t) = if n =? k then option_map f (zassoc k t) else zassoc n t.
Proof.
  unfold tupd. destruct (zassoc k t) as [a|] eqn:E.
  - destruct (Z.eqb_spec n k).
    + subst n. rewrite zassoc_zset_same. reflexivity.
    + apply zassoc_zset_other. congruence.
  - destruct (Z.eqb_spec n k); [subst n; rewrite E; reflexivity|reflexivity].
Qed.

Definition child_of (t : tree) (n c : Z) : option pchild :=
  match zassoc n t with Some nd => zassoc c (pn_children nd) | None => None end.
Definition value_of (t : tree) (n c s : Z) : option pyval :=
  match child_of t n c with Some ch => zassoc s (pc_values ch) | None => None end.

Lemma child_of_tupd t k f n c :
  child_of (tupd k f t) n c =
  if n =? k then match zassoc k t with Some nd => zassoc c (pn_children (f nd)) | None => None end
  else child_of t n c.
Proof.
  unfold child_of. rewrite zassoc_tupd. destruct (n =? k); [|reflexivity].
  destruct (zassoc k t); reflexivity.
Qed.

Lemma child_of_tupd_same t k f n c : (forall nd, pn_children (f nd) = pn_children nd) ->
  child_of (tupd k f t) n c = child_of t n c.
Proof.
  intro H. rewrite child_of_tupd. destruct (Z.eqb_spec n k); [|reflexivity]. subst.
  unfold child_of. destruct (zassoc k t); [rewrite H|]; reflexivity.
Qed.

Lemma child_of_append t n c k : zhas k t = false -> child_of (t ++ [(k, tnew k)]) n c = child_of t n c.
Proof.
  intro Z. unfold child_of. rewrite zassoc_app. destruct (zassoc n t) as [nd|] eqn:E; [reflexivity|].
  simpl. destruct (n =? k); reflexivity.
Qed.

Lemma child_of_tadd t n c k : child_of (tadd k t) n c = child_of t n c.
Proof. unfold tadd. destruct (zhas k t) eqn:Z; [reflexivity|apply child_of_append; exact Z]. Qed.

Definition is_set (k : kind) : bool := match k with KSet => true | _ => false end.
Definition is_child_pres (k : kind) : bool := match k with KChildPres => true | _ => false end.

(* every child of every node after a message, as a closed equation: a new child only by a child
   presentation to a known node without that child; new values only by set on a known child *)
Theorem child_frame sv k t m n c :
  child_of (meaning sv k t m) n c =
  if is_child_pres k && (n =? m_node m) && (c =? m_child m) && known t n && negb (known_child t n c)
  then Some (mkPChild (m_child m) (m_sub m) (m_payload m) [])
  else if is_set k && (n =? m_node m) && (c =? m_child m)
  then option_map (fun ch => mkPChild (pc_id ch) (pc_type ch) (pc_desc ch)
                                      (zset (m_sub m) (PS (m_payload m)) (pc_values ch)))
                  (child_of t n c)
  else child_of t n c.
Proof.
  destruct k; unfold meaning; cbn [is_child_pres is_set andb];
    try (apply child_of_tupd_same; intros; reflexivity); try reflexivity.
  - (* node presentation *)
    rewrite child_of_tupd_same by (intros; reflexivity). apply child_of_tadd.
  - (* child presentation *)
    rewrite child_of_tupd. unfold known, known_child, child_of, zhas.
    destruct (Z.eqb_spec n (m_node m)); [|reflexivity]. subst n. cbn [andb].
    destruct (zassoc (m_node m) t) as [nd|] eqn:E; [|rewrite andb_false_r; reflexivity].
    cbn [andb]. rewrite andb_true_r.
    destruct (zassoc (m_child m) (pn_children nd)) as [ch0|] eqn:E0.
    + destruct (Z.eqb_spec c (m_child m)); [subst c; rewrite E0; reflexivity|reflexivity].
    + unfold with_pchildren. cbn [pn_children]. rewrite zassoc_app.
      destruct (Z.eqb_spec c (m_child m)).
      * subst c. rewrite E0. simpl. rewrite Z.eqb_refl. reflexivity.
      * cbn [andb]. destruct (zassoc c (pn_children nd)); [reflexivity|]. simpl.
        destruct (Z.eqb_spec c (m_child m)); [contradiction|reflexivity].
  - (* set *)
    rewrite child_of_tupd. unfold child_of.
    destruct (Z.eqb_spec n (m_node m)); [|reflexivity]. subst n. cbn [andb].
    destruct (zassoc (m_node m) t) as [nd|] eqn:E; [|destruct (c =? m_child m); reflexivity].
    destruct (zassoc (m_child m) (pn_children nd)) as [ch0|] eqn:E0.
    + unfold with_pchildren. cbn [pn_children].
      destruct (Z.eqb_spec c (m_child m)).
      * subst c. rewrite zassoc_zset_same, E0. reflexivity.
      * apply zassoc_zset_other. congruence.
    + destruct (Z.eqb_spec c (m_child m)); [subst c; rewrite E0; reflexivity|reflexivity].
  - (* id request *)
    destruct (tnext t <=? 254); [|reflexivity]. apply child_of_append. apply tnext_fresh.
Qed.

(* C04 corollary: first presentation wins - a presented child keeps its type and description
   through every later message *)
Theorem first_presentation_wins sv k t m n c ch : child_of t n c = Some ch ->
  exists ch', child_of (meaning sv k t m) n c = Some ch' /\
              pc_id ch' = pc_id ch /\ pc_type ch' = pc_type ch /\ pc_desc ch' = pc_desc ch.
Proof.
  intro H. rewrite child_frame.
  assert (KC : known_child t n c = true).
  { unfold known_child, child_of, zhas in *. destruct (zassoc n t); [rewrite H; reflexivity|discriminate]. }
  rewrite KC. cbn [negb]. rewrite andb_false_r.
  destruct (is_set k && (n =? m_node m) && (c =? m_child m)).
  - rewrite H. eexists. split; [reflexivity|]. repeat split; reflexivity.
  - exists ch. repeat split; assumption.
Qed.

Section Corollaries.
  Variable orc : oracles.
  Variable clock : Z.

  Notation P g := (proj (g_sensors g)).

  Theorem callback_exact v g l g' r : cfg_is v (g_cf g) -> Inv orc g ->
    logic orc clock g l = Ok (g', r) ->
    exists ext, g_log g' = g_log g ++ ext /\
      cbs ext = match alerted_line (gvalidate orc g) v (P g) l with
                | Some m => if cf_callback (g_cf g) then [ECallback m (P g')] else []
                | None => []
                end.
  Proof.
    intros CI I E. pose proof (logic_eff orc clock v g l g' r CI I E) as HE.
    rewrite (eff_tree _ _ _ _ HE). exact (eff_log _ _ _ _ HE).
  Qed.

  (* Gateway.alert as modelled, completely: it touches the log and the flag only *)
  Theorem callback_raise_irrelevant g m :
    g_cf (alert g m) = g_cf g /\ g_sensors (alert g m) = g_sensors g /\ g_ota (alert g m) = g_ota g /\
    g_metric (alert g m) = g_metric g /\ g_jobs (alert g m) = g_jobs g /\
    g_dirty (alert g m) = (cf_persist (g_cf g) || g_dirty g) /\
    g_log (alert g m) = g_log g ++ (if cf_callback (g_cf g) then [ECallback m (P g)] else []).
  Proof.
    unfold alert. destruct (cf_callback (g_cf g)), (cf_persist (g_cf g)); cbn;
      rewrite ?app_nil_r; repeat split; reflexivity.
  Qed.

  Theorem setters_fallback p :
    (battery_of p = match parse p with
                    | Some z => if (0 <=? z) && (z <=? 100) then z else 0
                    | None => 0
                    end) /\
    0 <= battery_of p <= 100 /\
    (heartbeat_of p = match parse p with Some z => z | None => 0 end) /\
    (safe_version orc p = if orc_version orc p then p else s2p "1.4") /\
    (forall z, 0 <= z <= 100 -> battery_of (print z) = z) /\
    (forall z, heartbeat_of (print z) = z).
  Proof.
    split; [reflexivity|]. split.
    { unfold battery_of. destruct (parse p) as [z|]; [|lia].
      destruct ((0 <=? z) && (z <=? 100)) eqn:B; lia. }
    split; [reflexivity|]. split; [reflexivity|]. split.
    - intros z B. unfold battery_of. rewrite parse_print.
      destruct ((0 <=? z) && (z <=? 100)) eqn:E; [reflexivity|lia].
    - intro z. unfold heartbeat_of. rewrite parse_print. reflexivity.
  Qed.

  (* C04 corollary: nodes appear only through node presentation or id assignment *)
  Theorem nodes_only_by_presentation_or_id v g l g' r k : cfg_is v (g_cf g) -> Inv orc g ->
    logic orc clock g l = Ok (g', r) ->
    zhas k (g_sensors g') = true -> zhas k (g_sensors g) = false ->
    exists m, decode l = Some m /\ gvalidate orc g m = true /\
              ((m_type m = 0 /\ m_child m = 255 /\ k = m_node m) \/
               (m_type m = 3 /\ m_sub m = 3 /\ k = tnext (P g) /\ k <= 254)).
  Proof.
    intros CI I E K' K. pose proof (eff_tree _ _ _ _ (logic_eff orc clock v g l g' r CI I E)) as T.
    rewrite <- known_proj in K, K'. unfold known in K, K'. rewrite T in K'.
    unfold ml, meaning_line in K'.
    destruct (decode l) as [m|]; [|congruence].
    destruct (gvalidate orc g m) eqn:V; [|congruence].
    exists m. split; [reflexivity|]. split; [exact V|].
    apply zhas_In in K'. fold (keys (meaning (safe_version orc) (kind_of v m) (P g) m)) in K'.
    destruct (kind_of_adds v m) as [NP IR].
    destruct (keys_meaning (safe_version orc) (kind_of v m) (P g) m) as [Q|[(Kd & _ & Q)|(Kd & L & Q)]];
      rewrite Q in K'; [apply zhas_In in K'; congruence| |];
      (apply in_app_or in K' as [K'|[K'|[]]]; [apply zhas_In in K'; congruence|]).
    - left. destruct (NP Kd). auto.
    - right. destruct (IR Kd). subst k. auto.
  Qed.
End Corollaries.
