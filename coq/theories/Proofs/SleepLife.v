(* Smart sleep (C08): the wake-up flush as a state, the closed form of set_child_value on a
   sleeping node, and the vocabulary of Props/C08.v. *)
From Coq Require Import List NArith ZArith Bool String Lia.
From PMS Require Import Base.PyStr Base.PyInt Base.Exn Model.Codec Model.Rules Model.TableTypes
  Gen.Tables Model.Validate Model.Hex Model.Ota Model.Oracles Model.Gateway Spec.SerialApi
  Proofs.PyStrFacts Proofs.PyIntFacts Proofs.CodecProofs Proofs.ValidateProofs Proofs.GwLemmas Proofs.GwInv
  Proofs.SleepDefs Proofs.SleepFlush Proofs.SleepTrans.
Import ListNotations.
Open Scope string_scope.
Open Scope list_scope.
Open Scope Z_scope.

Definition sends_of (d : list event) : list pstr :=
  flat_map (fun e => match e with ESend s => [s] | _ => [] end) d.

Lemma sends_of_app a b : sends_of (a ++ b) = sends_of a ++ sends_of b.
Proof. unfold sends_of. apply flat_map_app. Qed.
Lemma sends_of_map ss : sends_of (map ESend ss) = ss.
Proof. induction ss as [|s r IH]; simpl; [reflexivity|]. rewrite IH. reflexivity. Qed.

Section Life.
  Variable orc : oracles.
  Variable clock : Z.

  Lemma fold_add_job ss : forall g, Forall (fun s => s <> []) ss ->
    fold_left add_job_send ss g =
    if cf_async (g_cf g) then set_log g (g_log g ++ map ESend ss) else set_jobs g (g_jobs g ++ map JSend ss).
  Proof.
    induction ss as [|s r IH]; intros g F; simpl.
    - rewrite !app_nil_r. destruct (cf_async (g_cf g)), g; reflexivity.
    - inversion F as [|? ? NE F']; subst. rewrite (IH _ F'). unfold add_job_send, send.
      destruct s; [contradiction NE; reflexivity|].
      destruct (cf_async (g_cf g)) eqn:A; cbn; rewrite A, <- app_assoc; reflexivity.
  Qed.

  (* state after the flush of node nd: only that node (queue emptied, slots initialised) and the
     outputs changed *)
  Definition flushed (g : gw) (nd : node) : gw :=
    let g1 := put_node g (woken nd) in
    if cf_async (g_cf g) then set_log g1 (g_log g ++ map ESend (flush_strings (tab g) nd))
    else set_jobs g1 (g_jobs g ++ map JSend (flush_strings (tab g) nd)).

  Lemma flush_strings_nonempty t k nd : Forall (qentry k) (n_queue nd) ->
    Forall (fun s => s <> []) (flush_strings t nd).
  Proof.
    intro Q. unfold flush_strings, desired_sets. apply Forall_app. split.
    - revert Q. apply Forall_impl. intros s (m & -> & _). apply encode_nonnil.
    - apply Forall_forall. intros s H. apply in_map_iff in H as (m & <- & _). apply encode_nonnil.
  Qed.

  Theorem flush_spec g k nd : Inv orc g -> QInv g -> get_node g k = Some nd ->
    handle_smartsleep orc g nd = Ok (flushed g nd).
  Proof.
    intros I Q G. rewrite (handle_smartsleep_closed orc g k nd I G). f_equal.
    apply fold_add_job, (flush_strings_nonempty _ k), (Q _ _ G).
  Qed.

  Definition after_wake (h : hfun) (g : gw) (m : msg) (nd : node) : gw :=
    match h with
    | HHeartbeat => alert (put_node (flushed g nd) (set_hb (woken nd) (m_payload m))) m
    | _ => flushed g nd
    end.

  Lemma wake_type_internal g m : cfg_ok (g_cf g) -> wake_msg (tab g) m = true ->
    type_handler (tab g) (m_type m) = Some HInternal.
  Proof.
    intros C W.
    destruct (type_handler_cases g 3 (facts_of_cfg g C) eq_refl) as [[E _]|[[E _]|[[E _]|[[_ TH]|[E _]]]]];
      try discriminate E.
    destruct C as [v [T _]].
    unfold wake_msg, tab in W. rewrite T, wake_ts_spec in W.
    unfold wake_spec in W. destruct (wake_sub v); [|discriminate]. apply andb_true_iff in W as [W _].
    apply Z.eqb_eq in W. rewrite W. exact TH.
  Qed.

  Definition gw_accepts (g : gw) (nid cid vti : Z) (v : pyval) : bool :=
    gvalidate orc g (set_msg_of (tab g) nid cid vti v).
  Definition node_accepts (nd : node) (cid vti : Z) (v : pyval) : bool :=
    validate (orc_version orc) (orc_float orc) (node_tab orc nd)
             (set_msg_of (node_tab orc nd) (n_id nd) cid vti v).

  Definition store_desired (nd : node) (cid vti : Z) (v : pyval) (dv : list (Z * option pyval)) : node :=
    with_new nd (zset cid (zset vti (Some v) dv) (n_new nd)).

  Theorem set_child_value_sleeping g sid cid vt v mt a nd :
    get_node g sid = Some nd -> zhas cid (n_children nd) = true -> sleeping nd = true ->
    set_child_value orc g sid cid vt v mt a =
    match vt_int vt with
    | None => Raise ValueError
    | Some vti =>
        if gw_accepts g (n_id nd) cid vti v then
          match zassoc cid (n_new nd) with
          | None => Raise ValueError
          | Some dv => if node_accepts nd cid vti v then Ok (put_node g (store_desired nd cid vti v dv))
                       else Raise VolInvalid
          end
        else Raise VolInvalid
    end.
  Proof.
    intros G ZH SL. unfold set_child_value. rewrite (is_sensor_known g sid (Some cid) nd G ZH). cbn [bind negb].
    rewrite G, SL. unfold create_set_message, validate_child_state, gw_accepts, node_accepts, set_msg_of.
    destruct (vt_int vt) as [vti|]; [|reflexivity]. cbn [bind].
    destruct (gvalidate orc g _); cbn [bind]; [|reflexivity].
    destruct (zassoc cid (n_new nd)) as [dv|]; [|reflexivity].
    destruct (validate _ _ _ _); reflexivity.
  Qed.

  Theorem vt_key_normalised g sid cid vt1 vt2 v mt a : vt_int vt1 = vt_int vt2 ->
    set_child_value orc g sid cid vt1 v mt a = set_child_value orc g sid cid vt2 v mt a.
  Proof.
    intro E. unfold set_child_value, create_set_message, validate_child_state. rewrite E. reflexivity.
  Qed.

  (* a sleeping node: the call is silent (nothing queued, nothing logged, nothing sent) *)
  Theorem set_child_value_sleeping_silent g sid cid vt v mt a nd g' :
    get_node g sid = Some nd -> zhas cid (n_children nd) = true -> sleeping nd = true ->
    set_child_value orc g sid cid vt v mt a = Ok g' ->
    g_log g' = g_log g /\ g_jobs g' = g_jobs g /\ g_ota g' = g_ota g /\ g_cf g' = g_cf g /\
    g_dirty g' = g_dirty g /\ g_metric g' = g_metric g /\
    exists vti dv, vt_int vt = Some vti /\ zassoc cid (n_new nd) = Some dv /\
                   gw_accepts g (n_id nd) cid vti v = true /\ node_accepts nd cid vti v = true /\
                   g' = put_node g (store_desired nd cid vti v dv).
  Proof.
    intros G ZH SL. rewrite (set_child_value_sleeping g sid cid vt v mt a nd G ZH SL).
    destruct (vt_int vt) as [vti|]; [|discriminate].
    destruct (gw_accepts g (n_id nd) cid vti v) eqn:GA; [|discriminate].
    destruct (zassoc cid (n_new nd)) as [dv|] eqn:D; [|discriminate].
    destruct (node_accepts nd cid vti v) eqn:NA; [|discriminate].
    intro H. inversion H; subst g'. repeat (split; [reflexivity|]).
    exists vti, dv. auto.
  Qed.

  (* an accepted call is what the step of the machine moves to *)
  Lemma accepted_call_is_step g s c vt v mt a : is_ok (set_child_value orc g s c vt v mt a) = true ->
    set_child_value orc g s c vt v mt a = Ok (step orc clock g (SetChild s c vt v mt a)).
  Proof. cbn [step]. destruct (set_child_value orc g s c vt v mt a); [reflexivity|discriminate]. Qed.

  Lemma facts_reboot g : facts g -> has_member (vt_internal_members (tab g)) "I_REBOOT" = true.
  Proof.
    unfold facts, tab_facts. intro F.
    repeat match type of F with _ && _ = true => apply andb_true_iff in F as [F ?] end. assumption.
  Qed.

  Theorem handle_set_known g m nd :
    get_node g (m_node m) = Some nd -> zhas (m_child m) (n_children nd) = true ->
    wire_ok (m_payload m) = true -> has_member (vt_internal_members (tab g)) "I_REBOOT" = true ->
    exists reply,
      handle_set g m =
      Ok (alert (put_node g (update_child_value nd (m_child m) (m_sub m) (m_payload m))) m, reply) /\
      (n_reboot nd = false -> reply = None).
  Proof.
    intros G ZH W HM. unfold handle_set.
    rewrite (is_sensor_known g (m_node m) (Some (m_child m)) nd G ZH). cbn [bind negb]. rewrite G.
    assert (RB : n_reboot (update_child_value nd (m_child m) (m_sub m) (m_payload m)) = n_reboot nd).
    { unfold update_child_value. destruct (zassoc (m_child m) (n_children nd)); [|reflexivity].
      destruct (zassoc (m_child m) (n_new nd)); reflexivity. }
    rewrite RB. destruct (n_reboot nd).
    - destruct (internal_member_ok g _ HM) as [z Ez]. rewrite Ez. cbn [bind].
      rewrite copy_spec by exact W. cbn [bind]. eexists. split; [reflexivity|discriminate].
    - exists None. split; reflexivity.
  Qed.

  Lemma update_child_value_facts nd c vt p : zhas c (n_children nd) = true ->
    let nd' := update_child_value nd c vt p in
    desired nd' c vt = None /\
    (forall c' vt', (c', vt') <> (c, vt) -> desired nd' c' vt' = desired nd c' vt') /\
    reported nd' c vt = Some (PS p) /\
    n_queue nd' = n_queue nd /\ n_id nd' = n_id nd /\ sleeping nd' = sleeping nd /\
    map fst (n_new nd') = map fst (n_new nd).
  Proof.
    intros ZH nd'. unfold nd', update_child_value. unfold zhas in ZH.
    destruct (zassoc c (n_children nd)) as [ch|] eqn:CH; [|discriminate].
    set (nd1 := with_children nd _).
    assert (R : forall nw, reported (with_new nd1 nw) c vt = Some (PS p)).
    { intro nw. unfold reported. cbn [nd1 with_new with_children n_children].
      rewrite zassoc_zset_same. apply zassoc_zset_same. }
    destruct (zassoc c (n_new nd)) as [dv|] eqn:D.
    - change (n_new nd) with (n_new nd1).
      split; [rewrite (desired_slot nd1 c vt None dv c vt D), !Z.eqb_refl; reflexivity|].
      split; [|split; [apply R|split; [reflexivity|split; [reflexivity|split]]]].
      + intros c' vt' N. rewrite (desired_slot nd1 c vt None dv c' vt' D).
        destruct (Z.eqb_spec c' c) as [->|NC]; [|reflexivity].
        destruct (Z.eqb_spec vt' vt) as [->|NV]; [contradiction N|]; reflexivity.
      + rewrite (sleeping_zset nd1). unfold sleeping. destruct (n_new nd); [discriminate D|reflexivity].
      + apply zset_keys. unfold zhas. cbn [nd1 with_children n_new]. rewrite D. reflexivity.
    - (* no slot: only the reported value changes *)
      unfold desired at 1. cbn [nd1 with_children n_new]. rewrite D.
      split; [reflexivity|]. split; [reflexivity|]. split; [exact (R (n_new nd))|repeat split; reflexivity].
  Qed.

  Theorem get_desired_value_closed nd c vt :
    get_desired_value nd c vt =
    match zassoc c (n_children nd) with
    | None => None
    | Some ch => match desired nd c vt with Some v => Some v | None => zassoc vt (c_values ch) end
    end.
  Proof.
    unfold get_desired_value, desired. destruct (zassoc c (n_children nd)) as [ch|]; [|reflexivity].
    destruct (sleeping nd) eqn:SL; [|rewrite (sleeping_false_new nd SL); reflexivity].
    destruct (zassoc c (n_new nd)) as [dv|]; [|reflexivity]. destruct (zassoc vt dv) as [[v|]|]; reflexivity.
  Qed.

  Definition req_reply (t : vtab) (m : msg) (v : pyval) : msg :=
    mkMsg (m_node m) (m_child m) (vt_set t) (m_ack m) (m_sub m) (py_str v).

  Definition enqueue (g : gw) (nd : node) (s : pstr) : gw := put_node g (with_queue nd (n_queue nd ++ [s])).
End Life.
