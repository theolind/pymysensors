(* C11 - persistence file formats: proofs about Model/Persist.v.
   Parts: association lists and decimal keys; the decoder on encoded trees (json_load_enc);
   reading Python values back as machine states; the pickle hooks; both formats on machine
   states; which heuristic of dict_to_object fires on which object; the source shape
   (generated facts = what the model transcribes); examples and the trees outside wf_tree that
   Props/C11.v uses as witnesses. *)
From Coq Require Import List NArith ZArith Bool String Lia Decimal DecimalZ.
From PMS Require Import Base.PyStr Base.PyInt Base.Exn Model.TableTypes Model.Gateway Gen.PersistAst Model.Persist
  Proofs.PyStrFacts Proofs.PyIntFacts.
Import ListNotations.
Open Scope string_scope.
Open Scope list_scope.
Open Scope Z_scope.

Lemma map_id_ext {A} (f : A -> A) l : (forall a, f a = a) -> map f l = l.
Proof. intro H. rewrite <- (map_id l) at 2. apply map_ext, H. Qed.

Lemma NoDup_map_inj {A B} (f : A -> B) l : (forall a b, f a = f b -> a = b) -> NoDup l -> NoDup (map f l).
Proof.
  intros Hf N. induction N as [|a l Ha _ IH]; simpl; constructor; [|exact IH].
  intro X. apply in_map_iff in X as [b [E I]]. apply Hf in E. subst. exact (Ha I).
Qed.

(* assignment to fresh keys, one after the other, appends: for aset and for kset *)
Lemma fold_set_fresh {K V} (set : K -> V -> list (K * V) -> list (K * V)) :
  (forall k v l, ~ In k (map fst l) -> set k v l = l ++ [(k, v)]) ->
  forall l acc, NoDup (map fst (acc ++ l)) -> fold_left (fun d kv => set (fst kv) (snd kv) d) l acc = acc ++ l.
Proof.
  intros Hs l. induction l as [|[k a] l IH]; intros acc H; simpl; [rewrite app_nil_r; reflexivity|].
  rewrite Hs.
  - rewrite IH; rewrite <- app_assoc; [reflexivity|exact H].
  - rewrite map_app in H. apply NoDup_remove_2 in H. intro X. apply H. apply in_or_app. left. exact X.
Qed.

Lemma aset_fresh {A} k (a : A) l : ~ In k (map fst l) -> aset k a l = l ++ [(k, a)].
Proof.
  induction l as [|[k' a'] l IH]; simpl; intro H; [reflexivity|].
  destruct (pstr_eqb k k') eqn:E.
  - apply pstr_eqb_eq in E. subst. tauto.
  - rewrite IH; [reflexivity|tauto].
Qed.

Lemma mkdict_nodup {A} (l : list (pstr * A)) : NoDup (map fst l) -> mkdict l = l.
Proof. exact (fold_set_fresh aset aset_fresh l []). Qed.

Lemma key_eqb_eq a b : key_eqb a b = true <-> a = b.
Proof.
  destruct a, b; simpl; split; intro H; try discriminate; try congruence.
  - apply Z.eqb_eq in H. congruence.
  - inversion H. apply Z.eqb_refl.
  - apply pstr_eqb_eq in H. congruence.
  - inversion H. apply pstr_eqb_refl.
Qed.

Lemma kset_fresh k v l : ~ In k (map fst l) -> kset k v l = l ++ [(k, v)].
Proof.
  induction l as [|[k' a'] l IH]; simpl; intro H; [reflexivity|].
  destruct (key_eqb k k') eqn:E.
  - apply key_eqb_eq in E. subst. tauto.
  - rewrite IH; [reflexivity|tauto].
Qed.

Lemma nodup_kint {A} (l : list (Z * A)) : NoDup (map fst l) -> NoDup (map (fun ka => KInt (fst ka)) l).
Proof. rewrite <- (map_map fst KInt). apply NoDup_map_inj. intros a b E. inversion E. reflexivity. Qed.

(* self._sensors.update(d) on the empty dict *)
Lemma dict_update_nodup l : NoDup (map fst l) -> dict_update [] (VDict l) = Ok l.
Proof. intro N. cbn [dict_update]. rewrite (fold_set_fresh kset kset_fresh l [] N). reflexivity. Qed.

Lemma print_inj a b : print a = print b -> a = b.
Proof. intro H. pose proof (parse_print a) as A. rewrite H, parse_print in A. congruence. Qed.

Lemma isdigit_ascii_table : forallb isdigit_char [48; 49; 50; 51; 52; 53; 54; 55; 56; 57]%N = true.
Proof. vm_compute. reflexivity. Qed.

Lemma uint_chars_isdigit u : forallb isdigit_char (uint_chars u) = true.
Proof.
  pose proof isdigit_ascii_table as T. cbn [forallb] in T.
  repeat (apply andb_true_iff in T as [? T]).
  induction u; cbn [uint_chars forallb]; try reflexivity; rewrite IHu, andb_true_r; assumption.
Qed.

Lemma print_isdigit z : 0 <= z -> py_isdigit (print z) = true.
Proof.
  intro H. unfold py_isdigit. pose proof (print_nonempty z) as NE.
  destruct (print z) as [|c r] eqn:E; [congruence|]. rewrite <- E.
  unfold print. destruct z as [|p|p]; simpl Z.to_int; try apply uint_chars_isdigit. lia.
Qed.

Lemma print_neg_not_isdigit z : z < 0 -> py_isdigit (print z) = false.
Proof. intro H. destruct z as [|p|p]; try lia. reflexivity. Qed.

Definition keys_ok {A} (l : list (Z * A)) : Prop :=
  NoDup (map fst l) /\ Forall (fun k => 0 <= k) (map fst l).

Section Formats.
  Variable ver_ok : pstr -> bool.

  Definition wf_pnode (n : pnode) : Prop :=
    keys_ok (pn_children n) /\
    Forall (fun kc => keys_ok (pc_values (snd kc))) (pn_children n) /\
    0 <= pn_batt n <= 100 /\
    (ver_ok (pn_pver n) = true \/ pn_pver n = s2p "1.4").
  Definition wf_tree (t : tree) : Prop := keys_ok t /\ Forall (fun kn => wf_pnode (snd kn)) t.

  (* the member loop of dec_json under a name: the text of the anonymous fix in Persist.dec_json,
     so that dec_obj below is a conversion (kitems does the same for the dict case of pickle_load) *)
  Definition members : list (pstr * json) -> res attrs :=
    fix members (l : list (pstr * json)) : res attrs :=
      match l with
      | [] => Ok []
      | (k, v) :: r => do v' <- dec_json ver_ok v; do r' <- members r; Ok ((k, v') :: r')
      end.

  Lemma dec_obj l : dec_json ver_ok (JObj l) = do l' <- members l; hook ver_ok (mkdict l').
  Proof. reflexivity. Qed.

  Lemma not_digit_not_in k keys : py_isdigit k = false -> forallb py_isdigit keys = true -> mem_pstr k keys = false.
  Proof.
    intro K. induction keys as [|x keys IH]; simpl; [reflexivity|]. intro F. apply andb_true_iff in F as [Hx F].
    destruct (pstr_eqb k x) eqn:E; [apply pstr_eqb_eq in E; congruence|exact (IH F)].
  Qed.

  Lemma branch_keys {A} (l : list (Z * A)) :
    Forall (fun k => 0 <= k) (map fst l) -> branch_of (map (fun ka => enc_key (fst ka)) l) = BIntKeys.
  Proof.
    intro P. assert (F : forallb py_isdigit (map (fun ka => enc_key (fst ka)) l) = true).
    { rewrite <- (map_map fst enc_key), forallb_forall. intros x X. apply in_map_iff in X as [k [<- I]].
      apply print_isdigit. rewrite Forall_forall in P. exact (P k I). }
    unfold branch_of. cbn [forallb].
    rewrite (not_digit_not_in k_sensor_id _ eq_refl F), (not_digit_not_in k_id _ eq_refl F), F. reflexivity.
  Qed.

  Lemma members_map {A} (f : A -> json) (g : A -> pv) (l : list (Z * A)) :
    Forall (fun ka => dec_json ver_ok (f (snd ka)) = Ok (g (snd ka))) l ->
    members (map (fun ka => (enc_key (fst ka), f (snd ka))) l) = Ok (map (fun ka => (enc_key (fst ka), g (snd ka))) l).
  Proof.
    induction 1 as [|a l Ha _ IH]; [reflexivity|].
    cbn [map members]. rewrite Ha. cbn [bind]. rewrite IH. reflexivity.
  Qed.

  Lemma int_keys_map {A} (g : A -> pv) (l : list (Z * A)) acc :
    NoDup (map fst acc ++ map (fun ka => KInt (fst ka)) l) ->
    int_keys (map (fun ka => (enc_key (fst ka), g (snd ka))) l) acc
    = Ok (acc ++ map (fun ka => (KInt (fst ka), g (snd ka))) l).
  Proof.
    revert acc. induction l as [|[k a] l IH]; intros acc N; simpl; [rewrite app_nil_r; reflexivity|].
    unfold enc_key. rewrite parse_print. rewrite kset_fresh.
    - rewrite IH; [rewrite <- app_assoc; reflexivity|].
      rewrite map_app. simpl. rewrite <- app_assoc. exact N.
    - simpl in N. apply NoDup_remove_2 in N. intro X. apply N. apply in_or_app. left. exact X.
  Qed.

  Lemma dec_intdict {A} (f : A -> json) (g : A -> pv) (l : list (Z * A)) :
    keys_ok l ->
    Forall (fun ka => dec_json ver_ok (f (snd ka)) = Ok (g (snd ka))) l ->
    dec_json ver_ok (JObj (map (fun ka => (enc_key (fst ka), f (snd ka))) l))
    = Ok (VDict (map (fun ka => (KInt (fst ka), g (snd ka))) l)).
  Proof.
    intros [N P] F. rewrite dec_obj, (members_map f g l F). cbn [bind].
    rewrite mkdict_nodup.
    - unfold hook. rewrite map_map. cbn [fst]. rewrite (branch_keys l P), (int_keys_map g l []); [reflexivity|].
      apply nodup_kint, N.
    - rewrite map_map. cbn [fst]. rewrite <- (map_map fst enc_key). apply NoDup_map_inj; [exact print_inj|exact N].
  Qed.

  Lemma dec_val v : dec_json ver_ok (enc_val v) = Ok (v_val v).
  Proof. destruct v; reflexivity. Qed.

  Lemma dec_values vals : keys_ok vals -> dec_json ver_ok (enc_values vals) = Ok (v_values vals).
  Proof.
    intro K. apply (dec_intdict enc_val v_val vals K).
    apply Forall_forall. intros x _. apply dec_val.
  Qed.

  Lemma dec_child c : keys_ok (pc_values c) ->
    dec_json ver_ok (enc_child c) = Ok (VChild (child_attrs (load_child c))).
  Proof.
    intro K. unfold enc_child. rewrite dec_obj. cbn [members]. rewrite (dec_values _ K). reflexivity.
  Qed.

  Lemma dec_children chs :
    keys_ok chs -> Forall (fun kc => keys_ok (pc_values (snd kc))) chs ->
    dec_json ver_ok (enc_children chs) = Ok (v_children (map (fun kc => (fst kc, load_child (snd kc))) chs)).
  Proof.
    intros K F. unfold v_children. rewrite map_map.
    apply (dec_intdict enc_child (fun c => VChild (child_attrs (load_child c))) chs K).
    revert F. apply Forall_impl. intros kc H. apply dec_child. exact H.
  Qed.

  Lemma dec_optZ o : dec_json ver_ok (enc_optZ o) = Ok (v_optZ o).
  Proof. destruct o; reflexivity. Qed.
  Lemma dec_optstr o : dec_json ver_ok (enc_optstr o) = Ok (v_optstr o).
  Proof. destruct o; reflexivity. Qed.

  (* what battery_level.setter and protocol_version.setter make of a node's attributes: both
     formats restore a Sensor through them (setattr in the hook, setattr in __setstate__) *)
  Definition setters (n : node) : node :=
    mkNode (n_id n) (n_children n) (n_type n) (n_sk_name n) (n_sk_ver n) (is_battery_level (VInt (n_batt n)))
           (if ver_ok (n_pver n) then n_pver n else s2p "1.4") (n_hb n) (n_new n) (n_queue n) (n_reboot n).

  Definition attr_ok (n : node) : Prop :=
    0 <= n_batt n <= 100 /\ (ver_ok (n_pver n) = true \/ n_pver n = s2p "1.4").

  Lemma battery_id b : 0 <= b <= 100 -> is_battery_level (VInt b) = b.
  Proof.
    intro H. unfold is_battery_level. cbn [py_int].
    destruct (Z.leb_spec 0 b); [|lia]. destruct (Z.leb_spec b 100); [|lia]. reflexivity.
  Qed.

  Lemma version_id p : ver_ok p = true \/ p = s2p "1.4" -> (if ver_ok p then p else s2p "1.4") = p.
  Proof. intros [->| ->]; [|destruct (ver_ok _)]; reflexivity. Qed.

  Lemma setters_ok n : attr_ok n -> setters n = n.
  Proof. intros [B V]. unfold setters. rewrite (battery_id _ B), (version_id _ V). destruct n; reflexivity. Qed.

  (* the part of wf_tree the decoder's heuristics need: decimal keys of non-negative ints, no
     duplicates, at the three levels; the attribute ranges only say that the setters change nothing *)
  Definition keys_pnode (n : pnode) : Prop :=
    keys_ok (pn_children n) /\ Forall (fun kc => keys_ok (pc_values (snd kc))) (pn_children n).
  Definition keys_tree (t : tree) : Prop := keys_ok t /\ Forall (fun kn => keys_pnode (snd kn)) t.
  Definition json_loaded (t : tree) : list (Z * node) := map (fun kn => (fst kn, setters (load_node (snd kn)))) t.

  Lemma wf_keys t : wf_tree t -> keys_tree t.
  Proof. intros [K F]. split; [exact K|]. revert F. apply Forall_impl. intros kn (Kc & Fc & _). split; assumption. Qed.

  Lemma wf_json_loaded t : wf_tree t -> json_loaded t = load_tree t.
  Proof.
    intros [_ F]. apply map_ext_Forall. revert F. apply Forall_impl. intros kn (_ & _ & A).
    rewrite setters_ok; [reflexivity|exact A].
  Qed.

  (* the Sensor branch of the hook, through Sensor.__init__ and setattr of the eight members.
     The member names are closed strings: once the children are decoded, aset / pstr_eqb on them
     compute, and the final reflexivity evaluates the setattr chain with the values left variables;
     the same holds for pdump_node, setstate_getstate and pload_node below *)
  Lemma dec_node n : keys_pnode n -> dec_json ver_ok (enc_node n) = Ok (VSensor (node_attrs (setters (load_node n)))).
  Proof.
    intros [K F]. unfold enc_node. rewrite dec_obj. cbn [members].
    rewrite (dec_children _ K F), dec_optZ, !dec_optstr. reflexivity.
  Qed.

  Theorem json_load_enc_keys t : keys_tree t -> json_load ver_ok (enc_json t) = Ok (state_dict (json_loaded t)).
  Proof.
    intros [K F]. unfold json_load, enc_json.
    rewrite (dec_intdict enc_node (fun n => VSensor (node_attrs (setters (load_node n)))) t K)
      by (revert F; apply Forall_impl; intro kn; apply dec_node).
    cbn [bind]. unfold state_dict, json_loaded. rewrite map_map. apply dict_update_nodup.
    rewrite map_map. apply nodup_kint, K.
  Qed.

  Theorem json_load_enc t : wf_tree t -> json_load ver_ok (enc_json t) = Ok (state_dict (load_tree t)).
  Proof. intro W. rewrite (json_load_enc_keys t (wf_keys t W)), (wf_json_loaded t W). reflexivity. Qed.

  Lemma r_items_map {A B} (f : pv -> option A) (g : Z * B -> pv) (h : B -> A) (l : list (Z * B)) :
    (forall kb, f (g kb) = Some (h (snd kb))) ->
    r_items f (map (fun kb => (KInt (fst kb), g kb)) l) = Some (map (fun kb => (fst kb, h (snd kb))) l).
  Proof.
    intro H. induction l as [|kb l IH]; [reflexivity|]. cbn [map r_items fst]. rewrite H, IH. reflexivity.
  Qed.

  Lemma r_items_id {A} (f : pv -> option A) (g : Z * A -> pv) (l : list (Z * A)) :
    (forall ka, f (g ka) = Some (snd ka)) -> r_items f (map (fun ka => (KInt (fst ka), g ka)) l) = Some l.
  Proof.
    intro H. rewrite (r_items_map f g (fun a => a) l H). f_equal. apply map_id_ext. intros []; reflexivity.
  Qed.

  Lemma r_values vals : r_intdict r_val (v_values vals) = Some vals.
  Proof. apply r_items_id. intros [k []]; reflexivity. Qed.

  Lemma r_child_attrs c : r_child (VChild (child_attrs c)) = Some c.
  Proof.
    transitivity (match r_intdict r_val (v_values (c_values c)) with
                  | Some vs => Some (mkChild (c_id c) (c_type c) (c_desc c) vs) | None => None end); [reflexivity|].
    rewrite r_values. destruct c; reflexivity.
  Qed.

  Lemma r_children chs : r_intdict r_child (v_children chs) = Some chs.
  Proof. apply r_items_id. intros [k c]. apply r_child_attrs. Qed.

  Lemma r_desired_values dv : r_intdict r_optval (v_desired_values dv) = Some dv.
  Proof.
    apply r_items_id. intros [k [[]|]]; reflexivity.
  Qed.

  Lemma r_new_state chs nw : r_intdict r_desired (v_new_state chs nw) = Some nw.
  Proof.
    apply r_items_id. intros [k dv]. exact (r_desired_values dv).
  Qed.

  Lemma r_optZ o : r_optint (v_optZ o) = Some o. Proof. destruct o; reflexivity. Qed.
  Lemma r_optS o : r_optstr (v_optstr o) = Some o. Proof. destruct o; reflexivity. Qed.

  (* the __dict__ order a pickle load leaves behind *)
  Definition node_attrs_pickled (n : node) : attrs :=
    [(k_sensor_id, VInt (n_id n));
     (k_children, v_children (n_children n));
     (k_type, v_optZ (n_type n));
     (k_sketch_name, v_optstr (n_sk_name n));
     (k_sketch_version, v_optstr (n_sk_ver n));
     (k_new_state, v_new_state (n_children n) (n_new n));
     (k_queue, VDeque (n_queue n));
     (k_reboot, VBool (n_reboot n));
     (k__battery_level, VInt (n_batt n));
     (k__heartbeat, VInt (n_hb n));
     (k__protocol_version, VStr (n_pver n))].

  (* r_node looks attributes up by name: the same reading for the two __dict__ orders that
     occur (Sensor.__init__ order after a JSON load, __setstate__ order after a pickle load) *)
  Lemma r_node_attrs_pickled n : r_node (VSensor (node_attrs_pickled n)) = Some n.
  Proof.
    transitivity (match r_intdict r_child (v_children (n_children n)), r_optint (v_optZ (n_type n)),
                        r_optstr (v_optstr (n_sk_name n)), r_optstr (v_optstr (n_sk_ver n)),
                        r_intdict r_desired (v_new_state (n_children n) (n_new n)) with
                  | Some ch, Some t, Some sn, Some sv, Some nw =>
                      Some (mkNode (n_id n) ch t sn sv (n_batt n) (n_pver n) (n_hb n) nw (n_queue n) (n_reboot n))
                  | _, _, _, _, _ => None
                  end); [reflexivity|].
    rewrite r_children, r_optZ, !r_optS, r_new_state. destruct n; reflexivity.
  Qed.

  Lemma r_node_attrs n : r_node (VSensor (node_attrs n)) = Some n.
  Proof. rewrite <- (r_node_attrs_pickled n). reflexivity. Qed.

  Theorem read_state_dict s : read_state (state_dict s) = Some s.
  Proof. apply r_items_id. intros [k n]. apply r_node_attrs. Qed.

  Definition kitems : list (key * pv) -> res (list (key * pv)) :=
    fix items (l : list (key * pv)) : res (list (key * pv)) :=
      match l with
      | [] => Ok []
      | (k, x) :: r => do x' <- pickle_load ver_ok x; do r' <- items r; Ok ((k, x') :: r')
      end.

  Lemma pload_dict l : pickle_load ver_ok (VDict l) = do l' <- kitems l; Ok (VDict l').
  Proof. reflexivity. Qed.

  Lemma kitems_map {A} (g g' : Z * A -> pv) (l : list (Z * A)) :
    (forall ka, pickle_load ver_ok (g ka) = Ok (g' ka)) ->
    kitems (map (fun ka => (KInt (fst ka), g ka)) l) = Ok (map (fun ka => (KInt (fst ka), g' ka)) l).
  Proof.
    intro H. induction l as [|ka l IH]; [reflexivity|]. cbn [map kitems]. rewrite H. cbn [bind].
    rewrite IH. reflexivity.
  Qed.

  (* values without Sensor instances are stored and rebuilt unchanged *)
  Definition stable (v : pv) : Prop := pickle_dump v = v /\ pickle_load ver_ok v = Ok v.

  Lemma stable_dict {A} (g : Z * A -> pv) (l : list (Z * A)) :
    (forall ka, stable (g ka)) -> stable (VDict (map (fun ka => (KInt (fst ka), g ka)) l)).
  Proof.
    intro H. split.
    - cbn [pickle_dump]. rewrite map_map. f_equal. apply map_ext. intro ka. cbn [fst snd].
      rewrite (proj1 (H ka)). reflexivity.
    - rewrite pload_dict, (kitems_map g g l); [reflexivity|]. intro ka. exact (proj2 (H ka)).
  Qed.

  Lemma stable_child i t d vs : stable vs ->
    stable (VChild [(k_id, VInt i); (k_type, VInt t); (k_description, VStr d); (k_values, vs)]).
  Proof.
    intros [D L]. split.
    - cbn [pickle_dump map fst snd]. rewrite D. reflexivity.
    - cbn [pickle_load]. rewrite L. reflexivity.
  Qed.

  Lemma stable_values vals : stable (v_values vals).
  Proof. apply stable_dict. intros [k []]; split; reflexivity. Qed.
  Lemma stable_children chs : stable (v_children chs).
  Proof. apply stable_dict. intros [k c]. apply stable_child, stable_values. Qed.
  Lemma stable_new_state chs nw : stable (v_new_state chs nw).
  Proof.
    apply stable_dict. intros [k dv]. apply stable_child, stable_dict. intros [vt [[]|]]; split; reflexivity.
  Qed.
  Lemma stable_optZ o : stable (v_optZ o). Proof. destruct o; split; reflexivity. Qed.
  Lemma stable_optstr o : stable (v_optstr o). Proof. destruct o; split; reflexivity. Qed.

  (* Sensor.__getstate__ of a machine node: the three underscored attributes move to the end
     under their property names; new_state, queue and reboot ARE part of the pickled state *)
  Definition node_state (n : node) : attrs :=
    [(k_sensor_id, VInt (n_id n));
     (k_children, v_children (n_children n));
     (k_type, v_optZ (n_type n));
     (k_sketch_name, v_optstr (n_sk_name n));
     (k_sketch_version, v_optstr (n_sk_ver n));
     (k_new_state, v_new_state (n_children n) (n_new n));
     (k_queue, VDeque (n_queue n));
     (k_reboot, VBool (n_reboot n));
     (k_battery_level, VInt (n_batt n));
     (k_heartbeat, VInt (n_hb n));
     (k_protocol_version, VStr (n_pver n))].

  Lemma pdump_node n : pickle_dump (VSensor (node_attrs n)) = VSensor (node_state n).
  Proof.
    unfold node_attrs. cbn [pickle_dump map fst snd].
    rewrite (proj1 (stable_children _)), (proj1 (stable_optZ _)), !(proj1 (stable_optstr _)),
      (proj1 (stable_new_state _ _)). reflexivity.
  Qed.

  (* what __setstate__ keeps of a node: transient state is reset whatever it was *)
  Definition persisted (n : node) : node :=
    mkNode (n_id n) (n_children n) (n_type n) (n_sk_name n) (n_sk_ver n) (n_batt n) (n_pver n) (n_hb n) [] [] false.

  (* by evaluation: getstate and setstate only move, delete and assign closed attribute names *)
  Lemma setstate_getstate n :
    setstate ver_ok (getstate (node_attrs n)) = Ok (node_attrs_pickled (persisted (setters n))).
  Proof. reflexivity. Qed.

  Lemma pload_node n :
    pickle_load ver_ok (VSensor (node_state n)) = Ok (VSensor (node_attrs_pickled (persisted (setters n)))).
  Proof.
    unfold node_state. cbn [pickle_load].
    rewrite (proj2 (stable_children _)), (proj2 (stable_optZ _)), !(proj2 (stable_optstr _)),
      (proj2 (stable_new_state _ _)). reflexivity.
  Qed.

  (* Sensor.__getstate__ then __new__ + __setstate__ on one node, read back *)
  Definition pickle_node (n : node) : res (option node) :=
    do a <- setstate ver_ok (getstate (node_attrs n)); Ok (r_node (VSensor a)).

  Lemma persisted_eq n : persisted n = load_node (proj_node n).
  Proof.
    unfold persisted, load_node, proj_node. cbn. rewrite map_map, map_id_ext; [reflexivity|].
    intros [c []]; reflexivity.
  Qed.

  Theorem pickle_load_save s : NoDup (map fst s) ->
    pickle_load_file ver_ok (pickle_save s)
    = Ok (map (fun kn => (KInt (fst kn), VSensor (node_attrs_pickled (persisted (setters (snd kn)))))) s).
  Proof.
    intro N. unfold pickle_load_file, pickle_save, state_dict. cbn [pickle_dump]. rewrite map_map. cbn [fst snd].
    rewrite (map_ext _ (fun kn => (KInt (fst kn), VSensor (node_state (snd kn)))))
      by (intros [k n]; cbn [fst snd]; rewrite pdump_node; reflexivity).
    rewrite pload_dict, (kitems_map _ (fun kn => VSensor (node_attrs_pickled (persisted (setters (snd kn))))))
      by (intro; apply pload_node).
    cbn [bind]. apply dict_update_nodup. rewrite map_map. apply nodup_kint, N.
  Qed.

  Lemma wf_attr_ok s : wf_tree (proj s) -> NoDup (map fst s) /\ Forall (fun kn => attr_ok (snd kn)) s.
  Proof.
    intros [[N _] F]. split.
    - unfold proj in N. rewrite map_map in N. exact N.
    - unfold proj in F. rewrite Forall_map in F. revert F. apply Forall_impl. intros [k n] (_ & _ & A). exact A.
  Qed.

  Theorem json_restore_save s : wf_tree (proj s) ->
    json_restore ver_ok (json_save s) = Ok (Some (load_tree (proj s))).
  Proof.
    intro W. unfold json_restore, json_save. rewrite (json_load_enc _ W). cbn [bind].
    rewrite read_state_dict. reflexivity.
  Qed.

  Theorem pickle_restore_save s : wf_tree (proj s) ->
    pickle_restore ver_ok (pickle_save s) = Ok (Some (load_tree (proj s))).
  Proof.
    intro W. destruct (wf_attr_ok s W) as [N F]. unfold pickle_restore.
    rewrite (pickle_load_save s N). cbn [bind]. unfold read_state.
    rewrite (r_items_map r_node _ (fun n => persisted (setters n))) by (intro; apply r_node_attrs_pickled).
    unfold load_tree, proj. rewrite map_map. do 2 f_equal. apply map_ext_Forall.
    revert F. apply Forall_impl. intros [k n] A. cbn [fst snd]. rewrite (setters_ok n A), persisted_eq. reflexivity.
  Qed.

  Lemma all_objs_values vals : all_objs (enc_values vals) = [map (fun kv => enc_key (fst kv)) vals].
  Proof.
    unfold enc_values. cbn [all_objs]. rewrite map_map. cbn [fst]. f_equal.
    induction vals as [|[k v] vals IH]; [reflexivity|]. cbn [map flat_map snd]. rewrite IH. destruct v; reflexivity.
  Qed.

  Lemma all_objs_child c : all_objs (enc_child c) = map snd (objs_child c).
  Proof.
    unfold enc_child, objs_child. cbn [all_objs map fst snd flat_map]. rewrite all_objs_values. reflexivity.
  Qed.

  Lemma all_objs_children chs :
    all_objs (enc_children chs)
    = map (fun kc => enc_key (fst kc)) chs :: map snd (flat_map (fun kc => objs_child (snd kc)) chs).
  Proof.
    unfold enc_children. cbn [all_objs]. rewrite map_map. cbn [fst]. f_equal.
    induction chs as [|[k c] chs IH]; [reflexivity|]. cbn [map flat_map snd]. rewrite IH, all_objs_child, map_app.
    reflexivity.
  Qed.

  Lemma all_objs_optZ o : all_objs (enc_optZ o) = []. Proof. destruct o; reflexivity. Qed.
  Lemma all_objs_optstr o : all_objs (enc_optstr o) = []. Proof. destruct o; reflexivity. Qed.

  Lemma all_objs_node n : all_objs (enc_node n) = map snd (objs_node n).
  Proof.
    unfold enc_node, objs_node. cbn [all_objs map fst snd flat_map].
    rewrite all_objs_children, all_objs_optZ, !all_objs_optstr. cbn [app]. rewrite app_nil_r. reflexivity.
  Qed.

  Definition fires_as_expected (ro : role * list pstr) : Prop := branch_of (snd ro) = expected_branch (fst ro).

  Lemma fires_child c : keys_ok (pc_values c) -> Forall fires_as_expected (objs_child c).
  Proof.
    intros [_ P]. unfold objs_child. constructor; [reflexivity|]. constructor; [|constructor]. exact (branch_keys _ P).
  Qed.

  Lemma fires_node n : keys_pnode n -> Forall fires_as_expected (objs_node n).
  Proof.
    intros [[_ P] F]. unfold objs_node. constructor; [reflexivity|]. constructor; [exact (branch_keys _ P)|].
    apply Forall_flat_map. revert F. apply Forall_impl. intros kc. apply fires_child.
  Qed.

  Theorem fires_tree t : keys_tree t -> Forall fires_as_expected (objs_tree t).
  Proof.
    intros [[_ P] F]. unfold objs_tree. constructor; [exact (branch_keys _ P)|].
    apply Forall_flat_map. revert F. apply Forall_impl. intros kn. apply fires_node.
  Qed.
End Formats.

Lemma src_encoder_sensor : gen_enc_sensor = enc_sensor_shape. Proof. reflexivity. Qed.
Lemma src_encoder_child : gen_enc_child = enc_child_shape. Proof. reflexivity. Qed.
Lemma src_encoder_shape : gen_enc_shape = enc_shape. Proof. reflexivity. Qed.
Lemma src_hook_branches : gen_hook = hook_shape. Proof. reflexivity. Qed.
Lemma src_io : gen_io = io_shape. Proof. reflexivity. Qed.
Lemma src_sensor_init : gen_sensor_init = sensor_init_shape. Proof. reflexivity. Qed.
Lemma src_setters : gen_setters = setters_shape. Proof. reflexivity. Qed.
Lemma src_readonly : gen_readonly_props = readonly_shape. Proof. reflexivity. Qed.
Lemma src_getstate_attrs : gen_getstate_attrs = getstate_attrs. Proof. reflexivity. Qed.
Lemma src_setstate_resets : gen_setstate_resets = setstate_resets_shape. Proof. reflexivity. Qed.
Lemma src_setstate_default : gen_setstate_default = setstate_default_shape. Proof. reflexivity. Qed.
Lemma src_child_init : gen_child_init = child_init_shape. Proof. reflexivity. Qed.
Lemma src_child_sig : gen_child_sig = child_sig_shape. Proof. reflexivity. Qed.
Lemma src_child_setstate_default : gen_child_setstate_default = child_setstate_default_shape. Proof. reflexivity. Qed.
Lemma src_validators : gen_validators = validators_shape. Proof. reflexivity. Qed.

Definition source_shape_ok : Prop :=
  gen_enc_sensor = enc_sensor_shape /\ gen_enc_child = enc_child_shape /\ gen_enc_shape = enc_shape /\
  gen_hook = hook_shape /\ gen_io = io_shape /\ gen_sensor_init = sensor_init_shape /\
  gen_setters = setters_shape /\ gen_readonly_props = readonly_shape /\ gen_getstate_attrs = getstate_attrs /\
  gen_setstate_resets = setstate_resets_shape /\ gen_setstate_default = setstate_default_shape /\
  gen_child_init = child_init_shape /\ gen_child_sig = child_sig_shape /\
  gen_child_setstate_default = child_setstate_default_shape /\ gen_validators = validators_shape.

Definition transient_empty (kn : Z * node) : Prop :=
  n_new (snd kn) = [] /\ n_queue (snd kn) = [] /\ n_reboot (snd kn) = false.

Definition ok_all : pstr -> bool := fun _ => true.
Definition ok_none : pstr -> bool := fun _ => false.
Definition ok_22 : pstr -> bool := fun s => pstr_eqb s (s2p "2.2").

(* node 0: no type, no children; node 255: a child without values and with the empty
   description, a child with astral / NUL code points in the description, an empty value and a
   value that looks like an encoded Sensor *)
Definition ex_tree : tree :=
  [(0, mkPNode 0 [] None None None 0 (s2p "1.4") 0);
   (255, mkPNode 255
           [(0, mkPChild 0 6 [] []);
            (254, mkPChild 254 38 [128512; 1114111; 0]%N
                    [(0, PS []); (47, PS (s2p "{""sensor_id"": 1}")); (2, PI 7)])]
           (Some 17) (Some (s2p "sensor_id")) (Some []) 100 (s2p "2.2") (-5))].

Ltac nodup := repeat (constructor; [simpl; intuition discriminate|]); constructor.
Ltac allpos := repeat (constructor; [lia|]); constructor.

Example ex_tree_wf : wf_tree ok_22 ex_tree.
Proof.
  unfold wf_tree, keys_ok, ex_tree. simpl. split; [split; [nodup|allpos]|].
  constructor; [|constructor; [|constructor]]; unfold wf_pnode, keys_ok; simpl.
  - split; [split; constructor|]. split; [constructor|]. split; [lia|]. right. reflexivity.
  - split; [split; [nodup|allpos]|]. split.
    + constructor; [split; constructor|]. constructor; [|constructor]. simpl. split; [nodup|allpos].
    + split; [lia|]. left. reflexivity.
Qed.

Example ex_tree_json : json_load ok_22 (enc_json ex_tree) = Ok (state_dict (load_tree ex_tree)).
Proof. vm_compute. reflexivity. Qed.

Definition ex_state : list (Z * node) :=
  [(7, mkNode 7 [(1, mkChild 1 3 (s2p "lamp") [(2, PS (s2p "1"))])] (Some 17) None None 50 (s2p "2.2") 12
         [(1, [(2, Some (PS (s2p "0"))); (3, None)])] [s2p "7;1;1;0;2;0"; s2p "7;255;3;0;13;"] true)].

Example ex_state_transient_not_empty : ~ Forall transient_empty ex_state.
Proof. intro H. apply Forall_inv in H. destruct H as [H _]. discriminate H. Qed.

Example ex_state_formats :
  json_restore ok_22 (json_save ex_state) = Ok (Some (load_tree (proj ex_state))) /\
  pickle_restore ok_22 (pickle_save ex_state) = Ok (Some (load_tree (proj ex_state))).
Proof. split; vm_compute; reflexivity. Qed.

(* the pickled state really contains the transient attributes *)
Example ex_pickle_contains_transient :
  match ex_state with
  | (_, n) :: _ => aget k_reboot (getstate (node_attrs n)) = Some (VBool true)
                   /\ aget k_queue (getstate (node_attrs n)) = Some (VDeque (n_queue n))
  | [] => False
  end.
Proof. split; reflexivity. Qed.

Definition plain_node (id : Z) : pnode := mkPNode id [] None None None 0 (s2p "1.4") 0.

(* a negative node id: "-1" is not isdigit, the top-level dict comes back keyed by STRINGS *)
Definition t_neg_node : tree := [(-1, plain_node (-1))].

Lemma neg_node_unreadable : json_restore ok_all (enc_json t_neg_node) = Ok None.
Proof. vm_compute. reflexivity. Qed.

(* one negative value type poisons the whole values dict: even key 3 comes back as "3" *)
Definition t_neg_vt : tree :=
  [(1, mkPNode 1 [(2, mkPChild 2 0 [] [(-1, PS (s2p "x")); (3, PS (s2p "y"))])] None None None 0 (s2p "1.4") 0)].

(* attributes outside the ranges the setters keep *)
Definition t_batt : tree := [(1, mkPNode 1 [] None None None 500 (s2p "1.4") 0)].
Definition t_pver : tree := [(1, mkPNode 1 [] None None None 0 (s2p "1.3") 0)].

Definition J (s : string) : pstr := s2p s.

(* a pickle written before heartbeats existed: the default is installed *)
Lemma corner_old_pickle_without_heartbeat :
  exists a, setstate ok_all [(k_sensor_id, VInt 1); (k_children, VDict []); (k_type, VNone);
                             (k_sketch_name, VNone); (k_sketch_version, VNone); (k_battery_level, VInt 7);
                             (k_protocol_version, VStr (J "2.0"))] = Ok a
            /\ r_node (VSensor a) = Some (mkNode 1 [] None None None 7 (J "2.0") 0 [] [] false).
Proof. eexists. split; vm_compute; reflexivity. Qed.
