(* C05: the shapes the reply table can prescribe, what the corollaries of reply_table in
   Props/C05.v need of lists and of send, and the examples (non-vacuity). *)
From Coq Require Import List NArith ZArith Bool String Lia.
From PMS Require Import Base.PyStr Base.PyInt Base.Exn Model.Codec Model.Rules Model.TableTypes
  Gen.Tables Model.Validate Model.Hex Model.Ota Model.Oracles Model.Gateway Spec.SerialApi Spec.ReplyTable
  Proofs.PyStrFacts Proofs.PyIntFacts Proofs.CodecProofs Proofs.ValidateProofs Proofs.GwLemmas Proofs.GwInv
  Proofs.ReplyBase Proofs.ReplyProofs Proofs.ReplyInv.
Import ListNotations.
Open Scope string_scope.
Open Scope list_scope.
Open Scope Z_scope.

(* the shapes the table can prescribe: nothing, the presentation request to an unknown sender, one
   command to the sender that is not a presentation request, or the broadcast discover request *)
Definition shape (v : ver) (vw : view) (m : msg) (P : list msg) : Prop :=
  P = [] \/
  (P = [presentation_request (m_node m)] /\ v_ge20 v = true /\
   (known vw (m_node m) = false \/ vw_child vw (m_node m) (m_child m) = false)) \/
  (exists x, P = [x] /\ m_node x = m_node m /\ (m_type x = 3 -> m_sub x <> 19)) \/
  (P = [discover_request (m_child m)] /\ m_type m = 3 /\ internal_action v (m_sub m) = Discover).

Lemma shape_one v vw m x : m_node x = m_node m -> (m_type x = 3 -> m_sub x <> 19) -> shape v vw m [x].
Proof. intros N S. right; right; left. exists x. auto. Qed.

(* the guards need_node / need_child of the table *)
Lemma shape_need v vw m (b : bool) K :
  (b = false -> known vw (m_node m) = false \/ vw_child vw (m_node m) (m_child m) = false) ->
  shape v vw m K -> shape v vw m (if b then K else unknown_reply v (m_node m)).
Proof.
  intros U S. destruct b; [exact S|]. unfold unknown_reply.
  destruct (v_ge20 v) eqn:G; [right; left; auto|left; reflexivity].
Qed.

Lemma prescribed_shape v vw m : shape v vw m (prescribed v vw m).
Proof.
  unfold prescribed.
  assert (NODE : forall K, shape v vw m K ->
                 shape v vw m (if known vw (m_node m) then K else unknown_reply v (m_node m)))
    by (intro K; apply shape_need; auto).
  assert (CHILD : forall K, shape v vw m K ->
                  shape v vw m (if known vw (m_node m) && vw_child vw (m_node m) (m_child m) then K
                                else unknown_reply v (m_node m)))
    by (intro K; apply shape_need; intro H; apply andb_false_iff, H).
  assert (NIL : shape v vw m []) by (left; reflexivity).
  destruct (m_type m =? 0); [destruct (m_child m =? 255); [exact NIL|exact (NODE _ NIL)]|].
  destruct (m_type m =? 1).
  { apply CHILD. destruct (vw_reboot vw (m_node m)); [apply shape_one; [reflexivity|discriminate]|exact NIL]. }
  destruct (m_type m =? 2).
  { apply CHILD. destruct (answer_value vw _ _ _); [apply shape_one; [reflexivity|discriminate]|exact NIL]. }
  destruct (Z.eqb_spec (m_type m) 3) as [T|_].
  - destruct (internal_action v (m_sub m)) eqn:A;
      [exact NIL|exact (NODE _ NIL)|apply shape_one; [reflexivity|discriminate]|
       apply shape_one; [reflexivity|discriminate]| | |exact (NODE _ NIL)].
    + destruct (spec_next_id (vw_ids vw)); [apply shape_one; [reflexivity|discriminate]|exact NIL].
    + right; right; right. auto.
  - apply NODE. destruct (m_sub m =? 0); [|destruct (m_sub m =? 2); [|exact NIL]].
    + destruct (vw_fw_config vw m); [apply shape_one; [reflexivity|discriminate]|exact NIL].
    + destruct (vw_fw_block vw m); [apply shape_one; [reflexivity|discriminate]|exact NIL].
Qed.

Lemma in_emitted_part sl P s : In s (emitted_part sl P) -> exists x, In x P /\ s = encode x.
Proof.
  unfold emitted_part. rewrite in_map_iff. intros (x & <- & H). apply filter_In in H as [H _].
  exists x. split; [exact H|reflexivity].
Qed.
Lemma in_withheld_part sl k P s : In s (withheld_part sl k P) ->
  exists x, In x P /\ s = encode x /\ m_node x = k /\ withheld sl x = true.
Proof.
  unfold withheld_part. rewrite in_map_iff. intros (x & <- & H). apply filter_In in H as [H B].
  apply andb_true_iff in B as [B1 B2]. exists x. repeat split; try assumption. lia.
Qed.

(* sending the reply string of a dispatcher call *)
Lemma send_reply g s : (exists x, s = encode x) ->
  sends (g_log (send g s)) = sends (g_log g) ++ [s] /\ g_jobs (send g s) = g_jobs g /\
  forall k, queue_of (send g s) k = queue_of g k.
Proof.
  intros [x ->]. destruct (send_frame g (encode x)) as (S & _ & _ & J & _).
  split; [rewrite send_encode; simpl; rewrite sends_app; reflexivity|]. split; [exact J|].
  intro k. unfold queue_of, get_node. rewrite S. reflexivity.
Qed.

Lemma last_emitted sl P ns s : ns ++ [s] = emitted_part sl P -> exists x, s = encode x.
Proof.
  intro E. assert (H : In s (emitted_part sl P)) by (rewrite <- E; apply in_or_app; right; left; reflexivity).
  apply in_emitted_part in H as (x & _ & ->). exists x. reflexivity.
Qed.

(* One inbound line in either task flavour: the dispatcher call, then transport.send(reply).  The
   commands produced inside the call (ns) are sent before the reply in the asyncio flavour and
   wait as send jobs in the threaded one. *)
Lemma logic_send_table orc clock v g l m : cfgv v g -> Inv orc g -> accepted orc g l m ->
  wakes_up v (view_of clock g) m = false ->
  let P := prescribed v (view_of clock g) m in
  let g' := match logic orc clock g l with
            | Ok (g1, Some r) => send g1 r
            | Ok (g1, None) => g1
            | Raise e => emit g (ERaise e)
            end in
  exists ns r, ns ++ olist r = emitted_part (vsleep g) P /\
    (if cf_async (g_cf g)
     then sends (g_log g') = sends (g_log g) ++ ns ++ olist r /\ g_jobs g' = g_jobs g
     else sends (g_log g') = sends (g_log g) ++ olist r /\ g_jobs g' = g_jobs g ++ map JSend ns) /\
    forall k, queue_of g' k = queue_of g k ++ withheld_part (vsleep g) k P.
Proof.
  intros C I A WU P g'. subst g'.
  destruct (logic_total orc clock g l (cfgv_cfg v g C) I) as (g1 & r & L & _). rewrite L.
  destruct (reply_table orc clock v g l m g1 r C I A WU L) as (ns & _ & O & E & Q).
  cbn [vw_sleeping view_of] in E, Q. fold P in E, Q. exists ns, r. split; [exact E|].
  destruct r as [s|]; cbn [olist] in *; [|rewrite !app_nil_r; split; [exact O|exact Q]].
  destruct (send_reply g1 s (last_emitted _ _ _ _ E)) as (S1 & S2 & S3). rewrite S1, S2.
  split; [|intro k; rewrite S3; apply Q].
  destruct (cf_async (g_cf g)); destruct O as [O1 O2]; rewrite O1, <- ?app_assoc; (split; [reflexivity|exact O2]).
Qed.

(* examples (non-vacuity), all by computation on concrete histories *)
Definition cf22 : config := mkConfig tab_22 true true false false.       (* 2.2, asyncio flavour *)
Definition cf22t : config := mkConfig tab_22 true false false false.     (* 2.2, threaded flavour *)
Definition cf15 : config := mkConfig tab_15 false true false false.      (* 1.5 *)

(* node 1 presents itself and child 0 (S_BINARY), reports V_STATUS = 1 *)
Definition hist1 : list op :=
  [Recv (s2p "1;255;0;0;3;x"); Recv (s2p "1;0;0;0;3;relay"); Recv (s2p "1;0;1;0;2;1")].

Definition new_sends (g g' : gw) : list pstr := skipn (List.length (sends (g_log g))) (sends (g_log g')).

(* the state after hist1 on a 2.2 asyncio gateway, evaluated once for the examples that start there *)
Lemma hist1_run clock :
  run no_oracles clock (gw_init cf22) hist1 =
  set_sensors (gw_init cf22)
    [(1, mkNode 1 [(0, mkChild 0 3 (s2p "relay") [(2, PS (s2p "1"))])] (Some 3) None None 0 (s2p "1.4") 0 [] [] false)].
Proof. reflexivity. Qed.

(* a value request for a known child with a value: the set reply, with the request's ack flag *)
Example ex_req_answered :
  let g := run no_oracles 0 (gw_init cf22) hist1 in
  new_sends g (step no_oracles 0 g (Recv (s2p "1;0;2;1;2;"))) = [s2p "1;0;1;1;2;1" ++ [nl]] /\
  prescribed V22 (view_of 0 g) (mkMsg 1 0 2 1 2 []) = [mkMsg 1 0 1 1 2 (s2p "1")].
Proof. rewrite hist1_run. vm_compute. split; reflexivity. Qed.

(* no value of that sub-type: nothing *)
Example ex_req_no_value :
  let g := run no_oracles 0 (gw_init cf22) hist1 in
  new_sends g (step no_oracles 0 g (Recv (s2p "1;0;2;0;3;"))) = [] /\
  prescribed V22 (view_of 0 g) (mkMsg 1 0 2 0 3 []) = [].
Proof. rewrite hist1_run. vm_compute. split; reflexivity. Qed.

(* unknown child on a 2.2 gateway: exactly one presentation request to the node *)
Example ex_unknown_child_22 :
  let g := run no_oracles 0 (gw_init cf22) hist1 in
  new_sends g (step no_oracles 0 g (Recv (s2p "1;7;2;0;2;"))) = [s2p "1;255;3;0;19;" ++ [nl]] /\
  prescribed V22 (view_of 0 g) (mkMsg 1 7 2 0 2 []) = [presentation_request 1].
Proof. rewrite hist1_run. vm_compute. split; reflexivity. Qed.

(* the same on a 1.5 gateway: silence *)
Example ex_unknown_child_15 :
  let g := run no_oracles 0 (gw_init cf15) hist1 in
  new_sends g (step no_oracles 0 g (Recv (s2p "1;7;2;0;2;"))) = [] /\
  prescribed V15 (view_of 0 g) (mkMsg 1 7 2 0 2 []) = [].
Proof. vm_compute. split; reflexivity. Qed.

(* config, time (clock 1700000000), id request, gateway ready on 2.2 *)
Example ex_internal_replies :
  let g := run no_oracles 1700000000 (gw_init cf22) hist1 in
  new_sends g (run no_oracles 1700000000 g
                 [Recv (s2p "1;255;3;0;6;0"); Recv (s2p "1;255;3;1;1;"); Recv (s2p "255;255;3;0;3;");
                  Recv (s2p "0;255;3;0;14;Gateway startup complete.")]) =
  [s2p "1;255;3;0;6;M" ++ [nl]; s2p "1;255;3;0;1;1700000000" ++ [nl]; s2p "255;255;3;0;4;2" ++ [nl];
   s2p "255;255;3;0;20;" ++ [nl]].
Proof. rewrite hist1_run. vm_compute. reflexivity. Qed.

(* threaded flavour: the nested presentation request is queued as a job and sent by the pump *)
Example ex_threaded_nested :
  let g := run no_oracles 0 (gw_init cf22t) [Recv (s2p "9;3;1;0;2;1"); Pump] in
  g_jobs g = [JSend (s2p "9;255;3;0;19;" ++ [nl])] /\ sends (g_log g) = [] /\
  sends (g_log (step no_oracles 0 g Pump)) = [s2p "9;255;3;0;19;" ++ [nl]].
Proof. vm_compute. repeat split; reflexivity. Qed.

(* a sleeping node (2.2: pre-sleep notification received): the reply to its request is withheld *)
Example ex_withheld :
  let g := run no_oracles 0 (gw_init cf22) (hist1 ++ [Recv (s2p "1;255;3;0;32;500")]) in
  let g' := step no_oracles 0 g (Recv (s2p "1;0;2;0;2;")) in
  vsleep g 1 = true /\ new_sends g g' = [] /\ queue_of g' 1 = queue_of g 1 ++ [s2p "1;0;1;0;2;1" ++ [nl]].
Proof. rewrite run_app, hist1_run. vm_compute. repeat split; reflexivity. Qed.

(* corner: id 255 can be registered as a node (validation accepts a presentation from node 255);
   once it sleeps, the broadcast discover request is withheld in "node 255's" queue *)
Example ex_discover_withheld :
  let g := run no_oracles 0 (gw_init cf22)
             [Recv (s2p "255;255;0;0;3;x"); Recv (s2p "255;0;0;0;3;relay"); Recv (s2p "255;255;3;0;32;500")] in
  let g' := step no_oracles 0 g (Recv (s2p "0;255;3;0;14;ready")) in
  vsleep g 255 = true /\ new_sends g g' = [] /\ queue_of g' 255 = [s2p "255;255;3;0;20;" ++ [nl]].
Proof. vm_compute. repeat split; reflexivity. Qed.

(* corner: the id response copies the request's child id and drops its ack flag *)
Example ex_id_response_copies_child :
  sends (g_log (run no_oracles 0 (gw_init cf22) [Recv (s2p "255;-3;3;1;3;")])) = [s2p "255;-3;3;0;4;1" ++ [nl]].
Proof. vm_compute. reflexivity. Qed.

(* the hypotheses of reply_table are satisfiable by a non-trivial state *)
Example ex_reply_table_premises :
  let g := run no_oracles 0 (gw_init cf22) hist1 in
  cfgv V22 g /\ accepted no_oracles g (s2p "1;0;2;1;2;") (mkMsg 1 0 2 1 2 []) /\
  wakes_up V22 (view_of 0 g) (mkMsg 1 0 2 1 2 []) = false /\ g_sensors g <> [].
Proof.
  rewrite hist1_run. split; [split; reflexivity|]. split; [split; vm_compute; reflexivity|].
  split; [vm_compute; reflexivity|discriminate].
Qed.

(* set_child_value(300, 0, 2, "1") on a 2.2 gateway: node 300 is unknown, but 300 is not a node id
   (`sensorid in range(BROADCAST_ID + 1)` fails), so is_sensor asks nobody for a presentation:
   nothing is sent, queued or stored, no exception (a presentation request to 300 would not
   validate). *)
Example ex_set_child_out_of_range_silent :
  let ops := [SetChild 300 0 (VtInt 2) (PS (s2p "1")) None None] in
  Forall op_wire ops /\
  run no_oracles 0 (gw_init cf22) ops = gw_init cf22 /\
  run no_oracles 0 (gw_init cf22t) ops = gw_init cf22t.
Proof.
  split; [constructor; [reflexivity|constructor]|]. split; reflexivity.
Qed.

(* ... whereas an unknown node with a valid id is still asked to present itself *)
Example ex_set_child_unknown_in_range :
  sends (g_log (run no_oracles 0 (gw_init cf22) [SetChild 200 0 (VtInt 2) (PS (s2p "1")) None None])) =
  [s2p "200;255;3;0;19;" ++ [nl]].
Proof. vm_compute. reflexivity. Qed.
