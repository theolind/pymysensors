(* C19 part 1: the framing layer delivers the decoded complete lines of the
   concatenated stream, whatever the segmentation. *)
From Coq Require Import List NArith ZArith Bool Lia.
From PMS Require Import Base.PyStr Base.PyInt Base.Exn Model.Codec Model.Framing
                        Proofs.PyStrFacts Proofs.CodecProofs.
Import ListNotations.
Open Scope N_scope.

Lemma last_app_ne {A} (x y : list A) d : y <> [] -> last (x ++ y) d = last y d.
Proof. destruct y; [contradiction|]. intros _. apply last_app_cons. Qed.

Lemma last_in_Forall {A} (P : A -> Prop) (l : list A) d : l <> [] -> Forall P l -> P (last l d).
Proof.
  intros NE F. induction F as [|x l Hx F IH]; [contradiction|].
  destruct l as [|y l]; [exact Hx|]. apply IH. discriminate.
Qed.

Lemma Forall_removelast {A} (P : A -> Prop) (l : list A) : Forall P l -> Forall P (removelast l).
Proof.
  intro F. induction F as [|x l Hx F IH]; [constructor|].
  simpl. destruct l; [constructor|]. constructor; assumption.
Qed.

Lemma tail_no_term t s : mem_N t (tail_of t s) = false.
Proof.
  unfold tail_of. apply (last_in_Forall (fun f => mem_N t f = false)).
  - apply split_nonempty.
  - apply split_fields_no_delim.
Qed.

Lemma complete_lines_no_terminator t s : Forall (fun l => mem_N t l = false) (complete_lines t s).
Proof. unfold complete_lines. apply Forall_removelast, split_fields_no_delim. Qed.

Lemma stream_reassembled t s :
  s = flat_map (fun l => l ++ [t]) (complete_lines t s) ++ tail_of t s.
Proof.
  unfold complete_lines, tail_of.
  rewrite <- (join_split t s) at 1.
  pose proof (split_nonempty t s) as NE.
  induction (split t s) as [|x l IH]; [contradiction|].
  destruct l as [|y l]; [reflexivity|].
  change (join [t] (x :: y :: l)) with (x ++ [t] ++ join [t] (y :: l)).
  rewrite IH by discriminate. simpl. rewrite <- !app_assoc. reflexivity.
Qed.

Lemma split_lines t ls x : Forall (fun l => mem_N t l = false) ls ->
  split t (flat_map (fun l => l ++ [t]) ls ++ x) = ls ++ split t x.
Proof.
  induction 1 as [|l ls Hl _ IH]; [reflexivity|].
  cbn [flat_map]. rewrite <- !app_assoc. cbn [app]. rewrite split_app_delim, IH by exact Hl. reflexivity.
Qed.

(* when a stream splits as some lines followed by the split of another stream, lines and
   tail follow *)
Lemma split_prefix t s pre s' : split t s = pre ++ split t s' ->
  complete_lines t s = pre ++ complete_lines t s' /\ tail_of t s = tail_of t s'.
Proof.
  intro E. unfold complete_lines, tail_of.
  rewrite E, removelast_app, last_app_ne by apply split_nonempty. split; reflexivity.
Qed.

Lemma lines_app t a b :
  complete_lines t (a ++ b) = complete_lines t a ++ complete_lines t (tail_of t a ++ b) /\
  tail_of t (a ++ b) = tail_of t (tail_of t a ++ b).
Proof.
  apply split_prefix. rewrite (stream_reassembled t a) at 1.
  rewrite <- app_assoc. apply split_lines, complete_lines_no_terminator.
Qed.

Lemma split1_spec t buf :
  match split1 t buf with
  | Some (p, rest) => buf = p ++ t :: rest /\ mem_N t p = false
  | None => mem_N t buf = false
  end.
Proof.
  induction buf as [|c r IH]; simpl; [reflexivity|]. rewrite (N.eqb_sym t).
  destruct (N.eqb c t) eqn:E; [apply N.eqb_eq in E as ->; split; reflexivity|].
  destruct (split1 t r) as [[p rest]|]; [|exact IH]. destruct IH as [-> IH].
  split; [reflexivity|]. simpl. rewrite N.eqb_sym, E. exact IH.
Qed.

Section Proofs.
  Variable t : N.
  Variable dec : bytes -> pstr.

  Lemma recv_loop_spec fuel : forall buf out,
    (length buf < fuel)%nat ->
    recv_loop t dec fuel buf out = (tail_of t buf, out ++ map dec (complete_lines t buf)).
  Proof.
    induction fuel as [|f IH]; intros buf out L; [lia|].
    simpl. pose proof (split1_spec t buf) as S. destruct (mem_N t buf) eqn:M.
    - destruct (split1 t buf) as [[p rest]|]; [|congruence]. destruct S as [-> NP].
      destruct (split_prefix t _ [p] rest (split_app_delim t p rest NP)) as [-> ->].
      rewrite IH by (rewrite app_length in L; simpl in L; lia).
      simpl. rewrite <- app_assoc. reflexivity.
    - unfold tail_of, complete_lines. rewrite (split_no_delim _ _ M). simpl. rewrite app_nil_r. reflexivity.
  Qed.

  Lemma data_received_spec p data :
    data_received t dec p data =
    (mkProto (tail_of t (p_buffer p ++ data)), map dec (complete_lines t (p_buffer p ++ data))).
  Proof.
    unfold data_received. rewrite recv_loop_spec by lia. reflexivity.
  Qed.

  (* invariant: the buffer between calls holds no terminator *)
  Lemma feed_spec cs : forall p,
    mem_N t (p_buffer p) = false ->
    feed t dec p cs =
    (mkProto (tail_of t (p_buffer p ++ concat cs)), map dec (complete_lines t (p_buffer p ++ concat cs))).
  Proof.
    induction cs as [|c r IH]; intros p NB.
    - simpl. unfold tail_of, complete_lines. rewrite app_nil_r, (split_no_delim _ _ NB).
      destruct p; reflexivity.
    - simpl feed. rewrite data_received_spec, IH by apply tail_no_term.
      cbn [p_buffer concat]. rewrite app_assoc.
      destruct (lines_app t (p_buffer p ++ c) (concat r)) as [-> ->].
      rewrite map_app. reflexivity.
  Qed.

  Theorem framing_segmentation_independent (cs : list bytes) :
    feed t dec (proto_init) cs =
    (mkProto (tail_of t (concat cs)), map dec (complete_lines t (concat cs))).
  Proof. rewrite feed_spec by reflexivity. reflexivity. Qed.
End Proofs.

Lemma chunks_fuel_concat n : (n <> 0)%nat -> forall fuel s, (length s <= fuel)%nat ->
  concat (chunks_fuel fuel n s) = s.
Proof.
  intros Hn fuel. induction fuel as [|f IH]; intros s L.
  - destruct s; [reflexivity|simpl in L; lia].
  - destruct s as [|c s]; [reflexivity|].
    cbn [chunks_fuel concat]. rewrite IH.
    + apply firstn_skipn.
    + rewrite skipn_length. simpl in L. simpl length. lia.
Qed.

Lemma chunks_fuel_bounded n fuel : forall s, Forall (fun c => (length c <= n)%nat /\ c <> []) (chunks_fuel fuel n s) \/ n = 0%nat.
Proof.
  destruct n as [|n]; [right; reflexivity|left].
  revert s. induction fuel as [|f IH]; intro s; [constructor|].
  destruct s as [|c s]; [constructor|]. cbn [chunks_fuel]. constructor; [|apply IH].
  split; [apply firstn_le_length|discriminate].
Qed.

Theorem recv_chunking_is_a_segmentation t dec n s : (n <> 0)%nat ->
  feed t dec proto_init (chunks_of n s) = (mkProto (tail_of t s), map dec (complete_lines t s)).
Proof.
  intro Hn. rewrite framing_segmentation_independent.
  unfold chunks_of. rewrite chunks_fuel_concat by (exact Hn || lia). reflexivity.
Qed.

Lemma decode_ignores_trailing_space (l : pstr) c : isspace c = true -> decode (l ++ [c]) = decode l.
Proof. intro H. unfold decode. rewrite (rstrip_snoc_space isspace l c H). reflexivity. Qed.

(* the terminator itself is white space for the codec: "line\n" given to logic()
   directly (MQTT, tests) decodes like the delivered "line" *)
Lemma decode_ignores_trailing_nl (l : pstr) : decode (l ++ [nl]) = decode l.
Proof. apply decode_ignores_trailing_space, isspace_nl. Qed.
