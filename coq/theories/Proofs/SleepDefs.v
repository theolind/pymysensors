(* Smart sleep (C07 / C08): definitions shared by the proofs, association-list facts, the
   header of an encoded line, and the per-version characterisation of wake-up announcements. *)
From Coq Require Import List NArith ZArith Bool String Lia.
From PMS Require Import Base.PyStr Base.PyInt Base.Exn Model.Codec Model.Rules Model.TableTypes
  Gen.Tables Model.Validate Model.Hex Model.Ota Model.Oracles Model.Gateway Spec.SerialApi
  Proofs.PyStrFacts Proofs.PyIntFacts Proofs.CodecProofs Proofs.ValidateProofs Proofs.GwLemmas Proofs.GwInv.
Import ListNotations.
Open Scope string_scope.
Open Scope list_scope.
Open Scope Z_scope.

(* assignment to an existing key keeps the order of the keys *)
Lemma zset_keys {A} k (a : A) l : zhas k l = true -> map fst (zset k a l) = map fst l.
Proof.
  unfold zhas. induction l as [|[k' a'] l IH]; simpl; [discriminate|].
  destruct (Z.eqb_spec k k') as [->|N]; simpl; [reflexivity|]. intro H. rewrite IH by exact H. reflexivity.
Qed.
(* assignment to a new key appends it *)
Lemma zset_new {A} k (a : A) l : zhas k l = false -> zset k a l = l ++ [(k, a)].
Proof. intro H. apply GwLemmas.zset_new, zhas_false, H. Qed.

Lemma zhas_zassoc {A} k (l : list (Z * A)) : zhas k l = match zassoc k l with Some _ => true | None => false end.
Proof. reflexivity. Qed.

Lemma zhas_app {A} k (l1 l2 : list (Z * A)) : zhas k (l1 ++ l2) = zhas k l1 || zhas k l2.
Proof. exact (GwLemmas.zhas_app k l1 l2). Qed.

Lemma In_zhas {A} k (a : A) l : In (k, a) l -> zhas k l = true.
Proof.
  unfold zhas. induction l as [|[k' a'] l IH]; simpl; [contradiction|].
  intros [H|H]; [inversion H; subst; rewrite Z.eqb_refl; reflexivity|].
  destruct (Z.eqb k k'); [reflexivity|apply IH; exact H].
Qed.

(* node id / command type of a line as the receiver reads them: first / third ";" field *)
Definition line_node (s : pstr) : option Z :=
  match split semi s with a :: _ => parse a | [] => None end.
Definition line_type (s : pstr) : option Z :=
  match split semi s with _ :: _ :: c :: _ => parse c | _ => None end.

Lemma split_encode m : exists rest,
  split semi (encode m) =
  print (m_node m) :: print (m_child m) :: print (m_type m) :: print (m_ack m) :: print (m_sub m) :: rest.
Proof.
  rewrite encode_body. unfold body_of. rewrite <- !app_assoc.
  exists (split semi (m_payload m ++ [nl])).
  repeat (change ([semi] ++ ?x) with (semi :: x);
          rewrite split_app_delim by apply print_no_semi; f_equal).
Qed.

(* for EVERY message (any payload, also one the wire format cannot carry) *)
Lemma line_node_encode m : line_node (encode m) = Some (m_node m).
Proof. unfold line_node. destruct (split_encode m) as [r ->]. apply parse_print. Qed.
Lemma line_type_encode m : line_type (encode m) = Some (m_type m).
Proof. unfold line_type. destruct (split_encode m) as [r ->]. apply parse_print. Qed.

Definition is_wake_h (h : option hfun) : bool :=
  match h with Some HHeartbeat | Some HPreSleep => true | _ => false end.

(* the dispatcher reaches handle_heartbeat_response (2.0/2.1 registry) or
   handle_pre_sleep_notification (2.2 registry) for this (type, sub-type) *)
Definition wake_ts (t : vtab) (ty sub : Z) : bool :=
  match type_handler t ty with
  | Some HInternal | Some HStream => is_wake_h (sub_handler t ty sub)
  | _ => false
  end.
Definition wake_msg (t : vtab) (m : msg) : bool := wake_ts t (m_type m) (m_sub m).

(* hand-written: internal command, I_HEARTBEAT_RESPONSE (22) in 2.0/2.1, I_PRE_SLEEP_NOTIFICATION (32)
   in 2.2; no smart sleep in 1.4/1.5 *)
Definition wake_sub (v : ver) : option Z :=
  match v with V20 | V21 => Some 22 | V22 => Some 32 | _ => None end.
Definition wake_spec (v : ver) (ty sub : Z) : bool :=
  match wake_sub v with Some s => (ty =? 3) && (sub =? s) | None => false end.

Definition wake_check (v : ver) : bool :=
  all_subs (fun ty sub h => implb (is_wake_h (Some h)) (wake_spec v ty sub)) (resolved v) &&
  match wake_sub v with
  | Some s => match type_lookup (resolved v) 3 with Some HInternal => is_wake_h (sub_lookup (resolved v) 3 s) | _ => false end
  | None => true
  end.

Lemma wake_check_all v : wake_check v = true.
Proof. destruct v; vm_compute; reflexivity. Qed.

Lemma wake_ts_spec v ty sub : wake_ts (tab_of v) ty sub = wake_spec v ty sub.
Proof.
  pose proof (wake_check_all v) as C. unfold wake_check in C. apply andb_true_iff in C as [C1 C2].
  unfold wake_ts. rewrite type_handler_resolved, sub_handler_resolved.
  destruct (wake_spec v ty sub) eqn:S.
  - unfold wake_spec in S. destruct (wake_sub v) as [s|]; [|discriminate].
    apply andb_true_iff in S as [S1 S2]. apply Z.eqb_eq in S1, S2. subst.
    destruct (type_lookup (resolved v) 3) as [[]|]; try discriminate C2. exact C2.
  - destruct (sub_lookup (resolved v) ty sub) as [h|] eqn:H;
      [|destruct (type_lookup (resolved v) ty) as [[]|]; reflexivity].
    pose proof (all_subs_spec _ _ C1 _ _ _ H) as I. cbv beta in I. rewrite S in I.
    destruct (is_wake_h (Some h)); [discriminate I|]. destruct (type_lookup (resolved v) ty) as [[]|]; reflexivity.
Qed.

(* which command reaches handle_set: exactly the set command (1) *)
Definition is_hset (h : option hfun) : bool := match h with Some HSet => true | _ => false end.
Lemma type_handler_set v ty : is_hset (type_handler (tab_of v) ty) = (ty =? 1).
Proof.
  rewrite type_handler_resolved. unfold type_lookup, olookup.
  destruct v; cbn [resolved snd zassoc];
    (destruct (Z.eqb_spec ty 0) as [->|]; [reflexivity|]); (destruct (Z.eqb_spec ty 1) as [->|]; [reflexivity|]);
    (destruct (Z.eqb_spec ty 2) as [->|]; [reflexivity|]); (destruct (Z.eqb_spec ty 3) as [->|]; [reflexivity|]);
    destruct (Z.eqb_spec ty 4) as [->|]; reflexivity.
Qed.

(* the pending desired value of (child, value type): new_state[child].values.get(vt) *)
Definition desired (nd : node) (c vt : Z) : option pyval :=
  match zassoc c (n_new nd) with
  | Some dv => match zassoc vt dv with Some (Some v) => Some v | _ => None end
  | None => None
  end.
(* the value last reported by the node *)
Definition reported (nd : node) (c vt : Z) : option pyval :=
  match zassoc c (n_children nd) with Some ch => zassoc vt (c_values ch) | None => None end.

(* an entry of a hold queue of node k: the encoding of a message addressed to k *)
Definition qentry (k : Z) (s : pstr) : Prop := exists m, s = encode m /\ m_node m = k.

(* every withheld string is addressed to the node whose queue holds it *)
Definition QInv (g : gw) : Prop :=
  forall k nd, get_node g k = Some nd -> Forall (qentry k) (n_queue nd).

(* writing entry vt of the slot of child c *)
Lemma desired_slot nd c vt x dv c' vt' : zassoc c (n_new nd) = Some dv ->
  desired (with_new nd (zset c (zset vt x dv) (n_new nd))) c' vt' =
  if (c' =? c) && (vt' =? vt) then x else desired nd c' vt'.
Proof.
  intro D. unfold desired. cbn [with_new n_new]. rewrite zassoc_zset.
  destruct (c' =? c) eqn:E; [|reflexivity]. apply Z.eqb_eq in E as ->. rewrite D, zassoc_zset.
  destruct (vt' =? vt); [destruct x|]; reflexivity.
Qed.

Lemma sleeping_zset nd c y : sleeping (with_new nd (zset c y (n_new nd))) = true.
Proof.
  unfold sleeping. cbn [with_new n_new]. pose proof (zset_nonnil c y (n_new nd)).
  destruct (zset c y (n_new nd)); [contradiction|reflexivity].
Qed.

Lemma sleeping_false_new nd : sleeping nd = false -> n_new nd = [].
Proof. unfold sleeping. destruct (n_new nd); [reflexivity|discriminate]. Qed.
