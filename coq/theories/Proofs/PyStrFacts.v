(* Facts about Base/PyStr.v: equality test, split / join, rstrip and trailing characters. *)
From Coq Require Import List NArith Bool Lia.
From PMS Require Import Base.PyStr.
Import ListNotations.
Open Scope N_scope.

Lemma pstr_eqb_eq a b : pstr_eqb a b = true <-> a = b.
Proof.
  revert b; induction a as [|x a IH]; intros [|y b]; simpl; split; intro H;
    try reflexivity; try discriminate.
  - apply andb_true_iff in H as [H1 H2]. apply N.eqb_eq in H1. apply IH in H2. congruence.
  - inversion H; subst. rewrite N.eqb_refl. simpl. apply IH. reflexivity.
Qed.

Lemma pstr_eqb_refl a : pstr_eqb a a = true.
Proof. apply pstr_eqb_eq. reflexivity. Qed.

Lemma mem_N_In x l : mem_N x l = true <-> In x l.
Proof.
  induction l as [|y l IH]; simpl; [split; [discriminate|tauto]|].
  rewrite orb_true_iff, IH, N.eqb_eq. split; intros [H|H]; auto.
Qed.

Lemma mem_N_app x a b : mem_N x (a ++ b) = mem_N x a || mem_N x b.
Proof. induction a as [|y a IH]; simpl; [reflexivity|]. rewrite IH. apply orb_assoc. Qed.

Lemma split_nonempty d s : split d s <> [].
Proof.
  induction s as [|c s IH]; simpl; [discriminate|].
  destruct (N.eqb c d); [discriminate|]. destruct (split d s); discriminate.
Qed.

Lemma split_no_delim d a : mem_N d a = false -> split d a = [a].
Proof.
  induction a as [|c a IH]; simpl; intro H; [reflexivity|].
  apply orb_false_iff in H as [H1 H2]. rewrite N.eqb_sym, H1. rewrite (IH H2). reflexivity.
Qed.

Lemma split_app_delim d a b :
  mem_N d a = false -> split d (a ++ d :: b) = a :: split d b.
Proof.
  induction a as [|c a IH]; simpl; intro H.
  - rewrite N.eqb_refl. reflexivity.
  - apply orb_false_iff in H as [H1 H2]. rewrite N.eqb_sym, H1. rewrite (IH H2). reflexivity.
Qed.

Lemma join_split d s : join [d] (split d s) = s.
Proof.
  induction s as [|c s IH]; simpl; [reflexivity|].
  pose proof (split_nonempty d s) as NE. destruct (split d s) as [|h t]; [contradiction|].
  destruct (N.eqb_spec c d) as [->|]; [|destruct t]; simpl in *; rewrite <- IH; reflexivity.
Qed.

Lemma split_fields_no_delim d s : Forall (fun f => mem_N d f = false) (split d s).
Proof.
  induction s as [|c s IH]; simpl; [constructor; [reflexivity|constructor]|].
  destruct (N.eqb c d) eqn:Ec; [constructor; [reflexivity|exact IH]|].
  destruct (split d s) as [|h t]; [repeat constructor; simpl; rewrite N.eqb_sym, Ec; reflexivity|].
  inversion IH; subst. constructor; [|assumption].
  simpl. rewrite N.eqb_sym, Ec. assumption.
Qed.

Lemma join_last_suffix d l : l <> [] -> exists pre, join d l = pre ++ last l [].
Proof.
  induction l as [|x l IH]; [congruence|]. intros _.
  destruct l as [|y l]; [exists []; reflexivity|].
  destruct IH as [pre E]; [discriminate|].
  exists (x ++ d ++ pre). change (join d (x :: y :: l)) with (x ++ d ++ join d (y :: l)).
  rewrite E. change (last (x :: y :: l) []) with (last (y :: l) []).
  rewrite !app_assoc. reflexivity.
Qed.

Lemma Forall_last {A} (P : A -> Prop) l d : Forall P l -> P d -> P (last l d).
Proof. induction 1 as [|x l Px _ IH]; [auto|]. intro Pd. destruct l; [exact Px|exact (IH Pd)]. Qed.

(* the last field of a split is a delimiter-free suffix *)
Lemma split_last_suffix d s :
  exists pre, s = pre ++ last (split d s) [] /\ mem_N d (last (split d s) []) = false.
Proof.
  destruct (join_last_suffix [d] (split d s) (split_nonempty d s)) as [pre E].
  rewrite join_split in E. exists pre. split; [exact E|].
  apply (Forall_last (fun f => mem_N d f = false)); [apply split_fields_no_delim|reflexivity].
Qed.

Lemma no_trailing_app_r sp a b : b <> [] -> no_trailing sp (a ++ b) = no_trailing sp b.
Proof.
  intro NE. unfold no_trailing. rewrite rev_app_distr.
  destruct (rev b) eqn:R; [|reflexivity].
  apply (f_equal (@rev N)) in R. rewrite rev_involutive in R. simpl in R. contradiction.
Qed.

Lemma no_trailing_snoc sp a c : no_trailing sp (a ++ [c]) = negb (sp c).
Proof. unfold no_trailing. rewrite rev_app_distr. reflexivity. Qed.

Lemma no_trailing_suffix sp a b : no_trailing sp (a ++ b) = true -> no_trailing sp b = true.
Proof.
  destruct b as [|x b]; [reflexivity|]. intro H.
  rewrite no_trailing_app_r in H by discriminate. exact H.
Qed.

Lemma rstrip_nil_iff sp s : rstrip sp s = [] <-> forallb sp s = true.
Proof.
  induction s as [|c s IH]; simpl; [tauto|].
  destruct (rstrip sp s) eqn:R.
  - destruct (sp c); simpl; split; intro H; try discriminate; try reflexivity.
    apply IH. reflexivity.
  - split; [discriminate|]. intro H. apply andb_true_iff in H as [_ H].
    apply IH in H. discriminate.
Qed.

Lemma rstrip_id sp s : no_trailing sp s = true -> rstrip sp s = s.
Proof.
  induction s as [|c s IH]; [reflexivity|]. intro H. simpl.
  destruct s as [|c2 s2].
  - simpl. unfold no_trailing in H. simpl in H. destruct (sp c); [discriminate|reflexivity].
  - assert (H2 : no_trailing sp (c2 :: s2) = true).
    { change (c :: c2 :: s2) with ([c] ++ (c2 :: s2)) in H.
      rewrite no_trailing_app_r in H by discriminate. exact H. }
    rewrite (IH H2). reflexivity.
Qed.

Lemma rstrip_snoc_space sp s c : sp c = true -> rstrip sp (s ++ [c]) = rstrip sp s.
Proof.
  intro Hc. induction s as [|x s IH]; simpl.
  - rewrite Hc. reflexivity.
  - rewrite IH. reflexivity.
Qed.

Lemma rstrip_no_trailing sp s : no_trailing sp (rstrip sp s) = true.
Proof.
  induction s as [|c s IH]; [reflexivity|]. simpl.
  destruct (rstrip sp s) as [|y r] eqn:R.
  - destruct (sp c) eqn:E; [reflexivity|]. unfold no_trailing. simpl. rewrite E. reflexivity.
  - change (c :: y :: r) with ([c] ++ (y :: r)).
    rewrite no_trailing_app_r by discriminate. exact IH.
Qed.

Lemma lstrip_id sp c s : sp c = false -> lstrip sp (c :: s) = c :: s.
Proof. intro H. simpl. rewrite H. reflexivity. Qed.

Lemma last_app_cons {A} (a : list A) x b d : last (a ++ x :: b) d = last (x :: b) d.
Proof.
  induction a as [|y a IH]; [reflexivity|].
  simpl app. rewrite <- IH. simpl. destruct (a ++ x :: b) eqn:E; [|reflexivity].
  destruct a; discriminate.
Qed.
