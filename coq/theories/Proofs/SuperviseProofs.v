(* C20 - lemmas about Model/Supervise.v.

   Part 1 (Section Ctl): what one step guarantees, for every interpretation of the clock
   arithmetic; the finite control state is enumerated and each case is closed by
   vm_compute.  Part 2: the Z instance (timing), and runs by induction. *)
From Coq Require Import List ZArith Bool Lia.
From PMS Require Import Gen.SupConsts Model.Watchdog Model.Supervise Spec.SupSpec Proofs.WatchdogProofs.
Import ListNotations.
Open Scope Z_scope.

(* case split on the atomic scrutinees left by vm_compute: variables and applications of
   the abstract comparisons *)
Ltac split_ifs :=
  repeat match goal with
  | |- context [match ?x with _ => _ end] =>
      first [ is_var x
            | match x with ?f _ _ => is_var f | ?f _ _ _ _ => is_var f end ];
      destruct x
  end.

(* what is left of an enumerated case: equations between constructors, and hypotheses that
   cannot hold *)
Ltac close_case :=
  repeat split; intros; try discriminate; try reflexivity; try congruence;
  try solve [exfalso; auto]; auto 12.

(* enumerate the flavour and the control state of a state satisfying Inv; leaves the dial
   loop [c] of a state without link, and the Z fields, as variables *)
Ltac enum_state fl s H :=
  destruct s as [n tp_ cn c ca ch di tm ef sp]; destruct H as (H1 & H2 & H3);
  cbn in H1, H2, H3;
  destruct tp_, cn; try (destruct (H1 eq_refl); discriminate);
  destruct sp; try (destruct (H3 eq_refl); discriminate);
  destruct tm; try (destruct (H2 _ eq_refl); discriminate);
  try (destruct (H1 eq_refl) as [_ ->]);
  destruct fl; try (destruct (H2 _ eq_refl); discriminate); clear H1 H2 H3.

Section Ctl.
Variables (add zmax : Z -> Z -> Z) (leb : Z -> Z -> bool) (wdc : Z -> Z -> Z -> Z -> wd_res).
Notation gs := (gstep add zmax leb wdc aser_guard_protocol atcp_guard_protocol).
(* the asyncio connect loops before the D21 repair *)
Notation gs_unfixed := (gstep add zmax leb wdc false false).

(* the invariant is kept; the callbacks say what happened to the link (a connect sets both
   timers to the clock: the check made at that instant must be idle, WatchdogProofs.wd_fresh);
   a link lost otherwise than by the user or (asyncio) an orderly close is dialled again at
   once *)
Lemma g_step : forall fl p s e, Inv fl s ->
  let r := gs fl p s e in
  Inv fl (fst r) /\
  (wdc (p_rt p) (now s) (now s) (now s) = WdIdle ->
   cbs (snd r) = cb_expected (conn s) (conn (fst r)) (loss_exc fl e)) /\
  (conn s = true -> conn (fst r) = false -> user_event e = false ->
   (is_async fl = true -> e <> PeerClose) ->
   ct (fst r) = CDialing /\ In (Attempt (now (fst r))) (snd r)).
Proof.
  intros fl [rt sl] s e H. enum_state fl s H; destruct e; vm_compute; split_ifs; close_case.
Qed.

(* no link and no dial loop: nothing can happen any more *)
Lemma g_idle : forall fl p s e, Inv fl s -> conn s = false -> ct s = CIdle ->
  let r := gs fl p s e in conn (fst r) = false /\ ct (fst r) = CIdle /\ snd r = [].
Proof.
  intros fl [rt sl] s e H Hc Hi. enum_state fl s H; try discriminate; cbn in Hi; subst;
  destruct e; vm_compute; split_ifs; close_case.
Qed.

(* after stop() (all four loops test the protocol reference, the asyncio ones since the
   D21 repair) a step outputs nothing, except that a dial in flight may fail and sleep; a
   loop that is not in a dial never dials again *)
Lemma g_stopped : forall fl p s e, Inv fl s -> stopped s = true ->
  let r := gs fl p s e in
  stopped (fst r) = true /\
  ((snd r = [] /\ (ct (fst r) = CDialing -> ct s = CDialing)) \/
   (ct s = CDialing /\ snd r = [Sleep (p_rt p)] /\ ct (fst r) <> CDialing)).
Proof.
  intros fl [rt sl] s e H Hs. enum_state fl s H; try discriminate;
  destruct e, c; vm_compute; split_ifs; (split; [reflexivity|]);
  first [left; split; [reflexivity|intro; congruence] | right; close_case].
Qed.

(* stop(): the asyncio dial loop that is idle or cancellable (= transport.connect_task)
   ends at once *)
Lemma g_stop : forall fl p s, Inv fl s ->
  let s' := fst (gs fl p s Stop) in
  stopped s' = true /\ (is_async fl = true -> stoppable s -> conn s' = false /\ ct s' = CIdle).
Proof.
  intros fl [rt sl] s H. enum_state fl s H; try destruct c; destruct ca; vm_compute;
  (split; [reflexivity|]); intros Hfl [Hs|Hs]; try discriminate; split; reflexivity.
Qed.

Lemma g_stoppable : forall fl p s e, Inv fl s -> is_async fl = true -> stoppable s ->
  stoppable (fst (gs fl p s e)).
Proof.
  intros fl [rt sl] s e H Hfl Hs. unfold stoppable in *. enum_state fl s H; try discriminate;
  cbn in Hs; destruct ca; try (destruct Hs as [->|Hs]; [|discriminate]);
  destruct e; vm_compute; split_ifs; close_case.
Qed.

Lemma g_sleeping_ignores : forall fl p s e u, Inv fl s -> ct s = CSleeping u ->
  user_event e = false -> (forall dt, e <> Tick dt) -> gs fl p s e = (s, []).
Proof.
  intros fl [rt sl] s e u H Hc. enum_state fl s H; cbn in Hc; try discriminate; subst;
  destruct e; vm_compute; split_ifs; close_case; exfalso; eauto.
Qed.

Lemma g_fail_sleeps : forall fl p s, ct s = CDialing ->
  gs fl p s AttemptFail = (set_ct s (CSleeping (add (now s) (p_rt p))), [Sleep (p_rt p)]).
Proof.
  intros fl [rt sl] [n tp_ cn c ca ch di tm ef sp] Hc. cbn in Hc. subst.
  destruct fl; vm_compute; reflexivity.
Qed.

(* D13: after a link is established, an orderly close by the peer leaves an asyncio gateway
   without link, dial loop or timer *)
Lemma g_peer_close_orphan : forall fl p, is_async fl = true -> wdc (p_rt p) 0 0 0 = WdIdle ->
  let s1 := fst (gs fl p init AttemptOk) in
  let r := gs fl p s1 PeerClose in
  conn s1 = true /\ conn (fst r) = false /\ ct (fst r) = CIdle /\ snd r = [LostCb false].
Proof.
  intros fl [rt sl] Hfl Hf. cbn in Hf.
  destruct fl; try discriminate; vm_compute; rewrite ?Hf; repeat split.
Qed.

(* D21, the loop header before the repair (`while True:`): stop() while the start()
   coroutine is still dialling, the dial fails, and reconnect_timeout later the loop dials
   again; with the repaired header the sleep ends, the loop test fails, no dial.  The two
   hypotheses say 0 < rt and rt <= rt of the abstract comparison *)
Lemma g_stop_initial_dial : forall fl p, is_async fl = true ->
  leb (p_rt p) 0 = false -> leb (add 0 (p_rt p)) (add 0 (p_rt p)) = true ->
  let es := [AttemptFail; Tick (p_rt p)] in
  goutputs add zmax leb wdc false false fl p (fst (gs_unfixed fl p init Stop)) es
    = [Sleep (p_rt p); Attempt (zmax (add 0 (p_rt p)) 0)] /\
  goutputs add zmax leb wdc aser_guard_protocol atcp_guard_protocol fl p (fst (gs fl p init Stop)) es
    = [Sleep (p_rt p)] /\
  ct (gfinal add zmax leb wdc aser_guard_protocol atcp_guard_protocol fl p (fst (gs fl p init Stop)) es) = CIdle.
Proof.
  intros fl [rt sl] Hfl H1 H2. cbn in H1, H2.
  destruct fl; try discriminate; vm_compute; rewrite ?H1; vm_compute; rewrite ?H2; vm_compute; repeat split; reflexivity.
Qed.

End Ctl.

Lemma inv_init : forall fl, Inv fl init.
Proof. intro fl. repeat split; cbn; intros; discriminate. Qed.

Lemma step_inv : forall fl p s e, Inv fl s -> Inv fl (fst (step fl p s e)).
Proof. intros fl p s e H. exact (proj1 (g_step Z.add Z.max Z.leb wd_check fl p s e H)). Qed.

Lemma final_cons : forall fl p s e es, final fl p s (e :: es) = final fl p (fst (step fl p s e)) es.
Proof. reflexivity. Qed.

Lemma final_app : forall fl p es1 es2 s, final fl p s (es1 ++ es2) = final fl p (final fl p s es1) es2.
Proof. intros. unfold final, gfinal. apply fold_left_app. Qed.

Lemma outputs_cons : forall fl p s e es,
  outputs fl p s (e :: es) = snd (step fl p s e) ++ outputs fl p (fst (step fl p s e)) es.
Proof.
  intros. unfold outputs, goutputs, step. cbn [grun].
  destruct (gstep Z.add Z.max Z.leb wd_check aser_guard_protocol atcp_guard_protocol fl p s e) as [s' o]. reflexivity.
Qed.

Lemma final_inv : forall fl p es s, Inv fl s -> Inv fl (final fl p s es).
Proof.
  induction es as [|e es IH]; intros s H; [exact H|].
  rewrite final_cons. apply IH, step_inv, H.
Qed.

Lemma callbacks_step : forall fl p s e, 0 <= p_rt p -> Inv fl s ->
  cbs (snd (step fl p s e)) = cb_expected (conn s) (conn (fst (step fl p s e))) (loss_exc fl e).
Proof.
  intros fl p s e Hrt H. destruct (g_step Z.add Z.max Z.leb wd_check fl p s e H) as (_ & Hcb & _).
  apply Hcb, wd_fresh, Hrt.
Qed.

Lemma lost_expected : forall c c' e x, In (LostCb x) (cb_expected c c' e) -> x = e.
Proof. intros [] [] e x; simpl; intuition congruence. Qed.

Lemma filter_cbs : forall f o, (forall a, f a = true -> is_cb a = true) ->
  filter f (cbs o) = filter f o.
Proof.
  intros f o Hf. unfold cbs. induction o as [|a o IH]; [reflexivity|]. cbn [filter].
  destruct (is_cb a) eqn:E; cbn [filter]; rewrite IH; [reflexivity|].
  destruct (f a) eqn:E'; [|reflexivity]. rewrite (Hf a E') in E. discriminate.
Qed.

Lemma made_lost_once : forall fl p es s, 0 <= p_rt p -> Inv fl s ->
  length (filter is_made (outputs fl p s es)) = links_made fl p s es /\
  length (filter is_lost (outputs fl p s es)) = links_lost fl p s es.
Proof.
  induction es as [|e es IH]; intros s Hrt H; [split; reflexivity|].
  rewrite outputs_cons, !filter_app, !app_length. cbn [links_made links_lost].
  destruct (IH _ Hrt (step_inv fl p s e H)) as [-> ->].
  rewrite <- (filter_cbs is_made), <- (filter_cbs is_lost) by (intros []; easy).
  rewrite (callbacks_step fl p s e Hrt H).
  destruct (conn s), (conn (fst (step fl p s e))); split; reflexivity.
Qed.

Lemma made_once : forall fl p es s, 0 <= p_rt p -> Inv fl s ->
  length (filter is_made (outputs fl p s es)) = links_made fl p s es.
Proof. intros. apply made_lost_once; assumption. Qed.

Lemma lost_once : forall fl p es s, 0 <= p_rt p -> Inv fl s ->
  length (filter is_lost (outputs fl p s es)) = links_lost fl p s es.
Proof. intros. apply made_lost_once; assumption. Qed.

Lemma alternate_expected : forall c c' x l, alternate c (cb_expected c c' x ++ l) = alternate c' l.
Proof. intros [] [] x l; reflexivity. Qed.

Lemma callbacks_alternate : forall fl p es s, 0 <= p_rt p -> Inv fl s ->
  alternate (conn s) (cbs (outputs fl p s es)) = true.
Proof.
  induction es as [|e es IH]; intros s Hrt H; [reflexivity|].
  rewrite outputs_cons. unfold cbs. rewrite filter_app. fold (cbs (snd (step fl p s e))).
  rewrite (callbacks_step fl p s e Hrt H), alternate_expected.
  apply IH; [assumption|apply step_inv, H].
Qed.

Lemma reconnect_follows_loss : forall fl p s e, Inv fl s ->
  conn s = true -> conn (fst (step fl p s e)) = false -> user_event e = false ->
  (is_async fl = true -> e <> PeerClose) ->
  ct (fst (step fl p s e)) = CDialing /\ In (Attempt (now (fst (step fl p s e)))) (snd (step fl p s e)).
Proof. intros fl p s e H. exact (proj2 (proj2 (g_step Z.add Z.max Z.leb wd_check fl p s e H))). Qed.

Lemma idle_run : forall fl p es s, Inv fl s -> conn s = false -> ct s = CIdle ->
  outputs fl p s es = [].
Proof.
  induction es as [|e es IH]; intros s H Hc Hi; [reflexivity|].
  destruct (g_idle Z.add Z.max Z.leb wd_check fl p s e H Hc Hi) as (H1 & H2 & H3).
  rewrite outputs_cons. unfold step at 1. rewrite H3. apply IH; [apply step_inv, H|exact H1|exact H2].
Qed.

(* after stop: whatever follows, the only thing that can still be output is the one
   sleep of the dial that was in flight when stop() was called and then failed *)
Lemma stopped_run : forall fl p es s, Inv fl s -> stopped s = true ->
  outputs fl p s es = [] \/ ct s = CDialing /\ outputs fl p s es = [Sleep (p_rt p)].
Proof.
  induction es as [|e es IH]; intros s H Hs; [left; reflexivity|].
  destruct (g_stopped Z.add Z.max Z.leb wd_check fl p s e H Hs) as [Hs' Ho]. fold (step fl p s e) in Hs', Ho.
  rewrite outputs_cons.
  destruct (IH _ (step_inv fl p s e H) Hs') as [E|[Hd E]]; rewrite E;
  destruct Ho as [[-> Hc]|(Hc & -> & Hn)]; auto. contradiction.
Qed.

(* every flavour, every state satisfying the invariant (in particular: stop() while the
   first connect loop of start() is still running) *)
Lemma quiet_after_stop : forall fl p s es, Inv fl s ->
  quiet (outputs fl p (fst (step fl p s Stop)) es) = true.
Proof.
  intros fl p s es H.
  destruct (stopped_run fl p es _ (step_inv fl p s Stop H)) as [->|[_ ->]];
  [exact (proj1 (g_stop Z.add Z.max Z.leb wd_check fl p s H))|reflexivity|reflexivity].
Qed.

Lemma stoppable_run : forall fl p es s, Inv fl s -> is_async fl = true -> stoppable s ->
  stoppable (final fl p s es).
Proof.
  induction es as [|e es IH]; intros s H Hfl Hs; [exact Hs|].
  rewrite final_cons. apply IH; [apply step_inv, H|exact Hfl|]. apply g_stoppable; assumption.
Qed.

(* the loop test at the top of the next iteration succeeds: the protocol reference is
   still set (all four loops test it) *)
Definition guard_ok (fl : flavour) (s : st) : Prop := tp s = true.

Lemma tick_sleeping : forall fl p s u dt, ct s = CSleeping u -> guard_ok fl s ->
  step fl p s (Tick dt) =
  if dt <=? 0 then (s, [])
  else if u <=? now s + dt
       then (set_ct (set_now s (Z.max u (now s))) CDialing, [Attempt (Z.max u (now s))])
       else (set_now s (now s + dt), []).
Proof.
  intros fl p s u dt Hc Hg. unfold step, gstep, tick, start_dial. rewrite Hc.
  replace (guard _ _ fl _) with true by (destruct fl; cbn; congruence). reflexivity.
Qed.

(* nothing but a Tick of positive length is noticed by the sleeping loop *)
Lemma sleeping_notices : forall fl p s e u, Inv fl s -> ct s = CSleeping u -> guard_ok fl s ->
  user_event e = false ->
  (exists dt, e = Tick dt /\ 0 < dt) \/
  step fl p s e = (s, []) /\ forall es, total_ticks (e :: es) = total_ticks es.
Proof.
  intros fl p s e u H Hc Hg He.
  destruct e; try discriminate He;
    try (right; split; [|reflexivity]; unfold step;
         apply (g_sleeping_ignores Z.add Z.max Z.leb wd_check fl p s _ u H Hc He); discriminate).
  destruct (Z_le_gt_dec dt 0); [right|left; eauto with zarith].
  rewrite (tick_sleeping fl p s u dt Hc Hg), (proj2 (Z.leb_le dt 0)) by lia.
  split; [reflexivity|]. intro es. cbn [total_ticks]. rewrite Z.max_l by lia. reflexivity.
Qed.

Lemma total_ticks_nonneg : forall es, 0 <= total_ticks es.
Proof. induction es as [|e es IH]; cbn; [lia|]. destruct e; try exact IH. lia. Qed.

Lemma first_attempt_nil_app : forall o, first_attempt ([] ++ o) = first_attempt o.
Proof. reflexivity. Qed.
