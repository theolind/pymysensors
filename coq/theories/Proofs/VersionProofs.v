(* Facts about Base/Version.v: awesomeversion's comparison on dotted numeric strings is the
   plain numeric comparison num_ge of the section lists; the two verdicts of the core machine
   (is_version accepts, the constants module get_const selects) read numerically. *)
From Coq Require Import List NArith Bool String Lia.
From PMS Require Import Base.PyStr Base.Version Proofs.PyStrFacts.
Import ListNotations.
Open Scope N_scope.
Open Scope list_scope.

Lemma all_zero_nonzero l : all_zero l = negb (nonzero l).
Proof.
  induction l as [|x l IH]; [reflexivity|].
  unfold all_zero, nonzero in *. cbn [forallb existsb]. rewrite IH.
  rewrite N.eqb_sym. destruct (x =? 0); reflexivity.
Qed.

Lemma num_ge_refl a : num_ge a a = true.
Proof. induction a as [|x a IH]; [reflexivity|]. cbn [num_ge]. rewrite N.eqb_refl. exact IH. Qed.

(* num_ge is transitive: the all-zero lists are its least elements *)
Lemma all_zero_cons z c : all_zero (z :: c) = true <-> z = 0 /\ all_zero c = true.
Proof. unfold all_zero. cbn [forallb]. rewrite andb_true_iff, N.eqb_eq. intuition. Qed.

Lemma num_ge_zero a : forall c, all_zero c = true -> num_ge a c = true.
Proof.
  induction a as [|x a IH]; intros [|z c] H; try reflexivity; [exact H|].
  apply all_zero_cons in H as [-> H]. cbn [num_ge].
  destruct (N.eqb_spec x 0); [apply IH, H|apply N.ltb_lt; lia].
Qed.

Lemma zero_num_ge b : forall c, all_zero b = true -> num_ge b c = true -> all_zero c = true.
Proof.
  induction b as [|y b IH]; intros [|z c] Hb H; try reflexivity; [exact H|].
  apply all_zero_cons in Hb as [-> Hb]. cbn [num_ge] in H.
  destruct (N.eqb_spec 0 z) as [<-|]; [|apply N.ltb_lt in H; lia].
  apply all_zero_cons. split; [reflexivity|apply (IH c Hb H)].
Qed.

Theorem num_ge_trans a : forall b c, num_ge a b = true -> num_ge b c = true -> num_ge a c = true.
Proof.
  induction a as [|x a IH]; intros [|y b] [|z c] H1 H2; try reflexivity; try exact H2.
  - exact (zero_num_ge _ _ H1 H2).
  - apply num_ge_zero, H2.
  - cbn [num_ge] in *.
    destruct (N.eqb_spec x y) as [->|], (N.eqb_spec y z) as [->|]; rewrite ?N.ltb_lt in *.
    + exact (IH _ _ H1 H2).
    + exact H2.
    + destruct (N.eqb_spec x z); [contradiction|apply N.ltb_lt, H1].
    + destruct (N.eqb_spec x z); [|apply N.ltb_lt]; lia.
Qed.

(* num_ge a b  <->  not (b > a) in compare_base_sections' reading *)
Lemma num_ge_base_cmp a : forall b,
  num_ge a b = negb (match base_cmp b a with Some r => r | None => false end).
Proof.
  induction a as [|x a IH]; intros [|y b].
  - reflexivity.
  - cbn [num_ge base_cmp]. rewrite all_zero_nonzero. destruct (nonzero (y :: b)); reflexivity.
  - cbn [num_ge base_cmp]. destruct (nonzero (x :: a)); reflexivity.
  - cbn [num_ge base_cmp]. rewrite (N.eqb_sym y x). destruct (N.eqb_spec x y) as [|E]; [apply IH|].
    cbn [negb]. destruct (N.ltb_spec y x), (N.ltb_spec x y); try reflexivity; lia.
Qed.

(* both comparisons: identical strings are never greater or less *)
Lemma cmp_num_ge a b (e : bool) : (e = true -> a = b) ->
  negb (if e then false else match base_cmp (sections b) (sections a) with Some r => r | None => false end)
  = num_ge (sections a) (sections b).
Proof.
  destruct e; intro H; [rewrite (H eq_refl), num_ge_refl; reflexivity|symmetry; apply num_ge_base_cmp].
Qed.

(* `not AwesomeVersion(b) > AwesomeVersion(a)`  =  a is numerically at least b *)
Theorem not_gt_num_ge a b : negb (av_gt_num b a) = num_ge (sections a) (sections b).
Proof. apply cmp_num_ge. intro E. symmetry. apply pstr_eqb_eq, E. Qed.

(* `not AwesomeVersion(a) < AwesomeVersion(b)`  =  a is numerically at least b *)
Theorem not_lt_num_ge a b : negb (av_lt_num a b) = num_ge (sections a) (sections b).
Proof. apply cmp_num_ge. apply pstr_eqb_eq. Qed.

Theorem ver_ge14_num s : ver_ge14 s = num_ge (sections s) [1; 4].
Proof. unfold ver_ge14. rewrite not_gt_num_ge. reflexivity. Qed.

Theorem safe_num_spec s : safe_num s = if num_ge (sections s) [1; 4] then s else s2p "1.4".
Proof. unfold safe_num. rewrite ver_ge14_num. reflexivity. Qed.

Lemma num_ge_below l b c : num_ge l c = false -> num_ge b c = true -> num_ge l b = false.
Proof.
  intros F H. destruct (num_ge l b) eqn:E; [|reflexivity]. rewrite (num_ge_trans _ _ _ E H) in F. discriminate.
Qed.

(* get_const(safe_is_version(s)) selects the greatest supported version not numerically above s *)
Theorem const_index_floor s : const_index s = floor_index (sections s).
Proof.
  unfold const_index. rewrite safe_num_spec. destruct (num_ge (sections s) [1; 4]) eqn:E.
  - unfold const_keys_desc, floor_index. cbn [first_not_lt]. rewrite !not_lt_num_ge.
    change (sections (s2p "2.2")) with [2; 2]. change (sections (s2p "2.1")) with [2; 1].
    change (sections (s2p "2.0")) with [2; 0]. change (sections (s2p "1.5")) with [1; 5].
    change (sections (s2p "1.4")) with [1; 4]. rewrite E.
    destruct (num_ge (sections s) [2; 2]), (num_ge (sections s) [2; 1]),
      (num_ge (sections s) [2; 0]), (num_ge (sections s) [1; 5]); reflexivity.
  - unfold floor_index.
    rewrite (num_ge_below _ [2; 2] _ E), (num_ge_below _ [2; 1] _ E), (num_ge_below _ [2; 0] _ E),
      (num_ge_below _ [1; 5] _ E) by reflexivity.
    vm_compute. reflexivity.
Qed.

(* floor_index is the floor: index i is chosen iff s is at least version i and below version i+1 *)
Theorem floor_index_spec l :
  let vs := [[1; 4]; [1; 5]; [2; 0]; [2; 1]; [2; 2]] in
  let i := floor_index l in
  (num_ge l [1; 4] = true -> num_ge l (nth i vs []) = true) /\
  (forall j, (i < j < 5)%nat -> num_ge l (nth j vs []) = false) /\
  (num_ge l [1; 4] = false -> i = 0%nat).
Proof.
  cbv zeta. unfold floor_index.
  destruct (num_ge l [2; 2]) eqn:E22; [|destruct (num_ge l [2; 1]) eqn:E21;
    [|destruct (num_ge l [2; 0]) eqn:E20; [|destruct (num_ge l [1; 5]) eqn:E15]]].
  all: split; [intros H14; cbn [nth]; assumption|split].
  all: try (intros j J; destruct j as [|[|[|[|[|j]]]]]; try lia; cbn [nth]; assumption).
  all: intro F; try reflexivity; enough (num_ge l [1; 4] = true) by congruence.
  all: eapply num_ge_trans; [eassumption|reflexivity].
Qed.

(* non-vacuity / the boundary cases *)
Example ver_ge14_accepts :
  map ver_ge14 [s2p "1.4"; s2p "1.4.0"; s2p "1.04"; s2p "2"; s2p "10.0"; s2p "1.10"; s2p "01.4"; s2p "1.4.0.0"]
  = [true; true; true; true; true; true; true; true].
Proof. vm_compute. reflexivity. Qed.
Example ver_ge14_rejects :
  map ver_ge14 [s2p "1.3.9"; s2p "1.3"; s2p "0.9"; s2p "1"; s2p "0"; s2p "1.03.99"]
  = [false; false; false; false; false; false].
Proof. vm_compute. reflexivity. Qed.
Example const_index_examples :
  map const_index [s2p "1.4"; s2p "1.4.9"; s2p "1.5"; s2p "1.9"; s2p "2"; s2p "2.0.0"; s2p "2.1"; s2p "2.1.9"; s2p "2.2"; s2p "2.10"; s2p "3"; s2p "1.3"; s2p "0"]
  = [0; 0; 1; 1; 2; 2; 3; 3; 4; 4; 4; 0; 0]%nat.
Proof. vm_compute. reflexivity. Qed.
