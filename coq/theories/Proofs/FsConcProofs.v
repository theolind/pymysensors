(* D23: two saves on one file system.  Lemmas that tie pause / resume of Model/FsConc.v to the interpreter of
   FsSave: preempted inside the first statement (split_here), inside a later one (split_later); and the observation
   d23_obs of the unlocked schedule on the GENERATED programs. *)
From Coq Require Import List Bool Arith NArith Lia.
From PMS Require Import Base.PyStr Spec.AbstractFs Model.FsSave Model.FsCode Model.FsConc Proofs.FsProofs.
Import ListNotations.
Local Open Scope nat_scope.

Section Split.
Context {St : Type}.

Lemma do_act_exists : forall (new : St) a st st', do_act new a st = Some st' ->
  (forall n, a <> AIsfile n) -> m_exists st' = m_exists st.
Proof.
  intros new a st st' H Hn. destruct a; cbn in H;
    try (injection H as <-; reflexivity);
    try (destruct (m_h st) as [h|]; [|discriminate]; injection H as <-; try reflexivity).
  - exfalso; eapply Hn; reflexivity.
  - destruct (fs_open_trunc (m_fs st) n); injection H as <-; reflexivity.
  - unfold flush_h. destruct (h_dirty h); reflexivity.
  - destruct (m_h st) as [h|]; injection H as <-; [|reflexivity].
    unfold flush_h. destruct (h_dirty h); reflexivity.
  - destruct (fs_rename (m_fs st) a b); [|discriminate]. injection H as <-; reflexivity.
  - destruct (fs_remove (m_fs st) a); [|discriminate]. injection H as <-; reflexivity.
Qed.

(* running a list of calls cut before call number e (counted from k) and then the rest = running all *)
Lemma run_acts_split : forall (new : St) acts k e st, k <= e ->
  run_acts new None k acts st =
  match run_acts new (Some (EvCrash, e)) k acts st with
  | (s, Crashed) => run_acts new None e (skipn (e - k) acts) s
  | r => r
  end.
Proof.
  intros new acts. induction acts as [|a r IH]; intros k e st Hk.
  - reflexivity.
  - cbn [run_acts]. destruct (Nat.eqb e k) eqn:Ek.
    + apply Nat.eqb_eq in Ek. subst e. rewrite Nat.sub_diag. reflexivity.
    + apply Nat.eqb_neq in Ek. destruct (do_act new a st) as [st'|] eqn:Ea; [|reflexivity].
      rewrite (IH (S k) e st') by lia.
      replace (e - k) with (S (e - S k)) by lia. reflexivity.
Qed.

Lemma run_acts_crash_exists : forall (new : St) acts k e st s,
  run_acts new (Some (EvCrash, e)) k acts st = (s, Crashed) ->
  (forall a n, In a acts -> a <> AIsfile n) -> m_exists s = m_exists st.
Proof.
  intros new acts. induction acts as [|a r IH]; intros k e st s H Hn.
  - discriminate.
  - cbn [run_acts] in H. destruct (Nat.eqb e k).
    + injection H as <-. reflexivity.
    + destruct (do_act new a st) as [st'|] eqn:Ea; [|discriminate].
      rewrite (IH _ _ _ _ H) by (intros; apply Hn; right; assumption).
      eapply do_act_exists; [exact Ea | intros n; apply Hn; left; reflexivity].
Qed.

Lemma acts_of_exists : forall w (st st' : mstate St) op, m_exists st' = m_exists st ->
  acts_of w st' op = acts_of w st op.
Proof. intros w st st' op H. destruct op; cbn; try reflexivity. rewrite H. reflexivity. Qed.

Lemma acts_no_isfile : forall w (st : mstate St) op, (forall n, op <> IExists n) ->
  forall a n, In a (acts_of w st op) -> a <> AIsfile n.
Proof.
  intros w st op Hop a n Hin. destruct op; cbn in Hin;
    try (destruct Hin as [<-|[]]; discriminate); try contradiction.
  - exfalso; eapply Hop; reflexivity.
  - destruct (m_exists st); cbn in Hin; destruct Hin as [<-|[<-|[]]] || destruct Hin as [<-|[]]; discriminate.
  - unfold dump_acts in Hin. apply in_app_or in Hin. destruct Hin as [Hin|[<-|[]]]; [|discriminate].
    apply repeat_spec in Hin. subst a. discriminate.
Qed.

(* what thread 1 reads again when it resumes inside statement op: `exists` and, through it, the list of calls *)
Lemma exists_at_pause : forall w (new : St) op j st s,
  run_acts new (Some (EvCrash, j)) 0 (acts_of w st op) st = (s, Crashed) -> m_exists s = m_exists st.
Proof.
  intros w new op j st s R.
  destruct op; try (eapply run_acts_crash_exists; [exact R|]; apply acts_no_isfile; intros n0; discriminate).
  cbn in R. destruct (Nat.eqb j 0); [injection R as <-; reflexivity|]. cbn in R. discriminate.
Qed.

Lemma acts_same_at_resume : forall w (new : St) op e st s,
  run_acts new (Some (EvCrash, e)) 0 (acts_of w st op) st = (s, Crashed) ->
  acts_of w s op = acts_of w st op.
Proof. intros w new op e st s H. apply acts_of_exists, (exists_at_pause w new op e st s H). Qed.

Lemma run_acts_none_not_crashed : forall (new : St) l n st s, run_acts new None n l st <> (s, Crashed).
Proof.
  intros new l. induction l as [|b l IHl]; intros n st s RR; [discriminate|].
  cbn [run_acts] in RR. destruct (do_act new b st); [eapply IHl; exact RR | discriminate].
Qed.

Lemma exec_none_not_crashed : forall w (new : St) prog st s, exec w new None prog st <> (s, Crashed).
Proof.
  intros w new prog. induction prog as [|a r IH]; intros st s E2; [discriminate|].
  cbn [exec ev_next ev_here] in E2.
  destruct (i_guard a && negb (m_exists st)); [eapply IH; exact E2|].
  destruct (i_op a);
    try (match type of E2 with context [run_acts ?x ?y ?z ?u ?v] =>
           destruct (run_acts x y z u v) as [q [| |]] eqn:RR end;
         [eapply IH; exact E2 | discriminate | eapply run_acts_none_not_crashed; exact RR]).
  - destruct (m_need_save st); [eapply IH; exact E2 | discriminate].
  - eapply IH; exact E2.
Qed.

(* so a continuation for the paused case is never taken after an undisturbed run *)
Lemma exec_none_keep : forall w (new : St) prog st (k : mstate St -> mstate St * status),
  match exec w new None prog st with (stp, Crashed) => k stp | r => r end = exec w new None prog st.
Proof.
  intros w new prog st k. destruct (exec w new None prog st) as [s [| |]] eqn:E; try reflexivity.
  exfalso; eapply exec_none_not_crashed; exact E.
Qed.

(* the calls of one statement, cut before call j and resumed *)
Lemma calls_split : forall w (new : St) ins rest j st op,
  i_op ins = op -> (i_guard ins && negb (m_exists st)) = false ->
  op <> IGuardNeedSave -> (forall b, op <> ISetNeedSave b) ->
  match run_acts new None 0 (acts_of w st op) st with
  | (st', Done) => exec w new None rest st'
  | (st', Raised) => (unwind new ins st', Raised)
  | (st', Crashed) => (st', Crashed)
  end =
  match
    match run_acts new (Some (EvCrash, j)) 0 (acts_of w st op) st with
    | (st', Done) => exec w new None rest st'
    | (st', Raised) => (unwind new ins st', Raised)
    | (st', Crashed) => (st', Crashed)
    end
  with
  | (stp, Crashed) => resume w new 0 j (ins :: rest) stp
  | r => r
  end.
Proof.
  intros w new ins rest j st op Eop G Hg Hs.
  rewrite (run_acts_split new (acts_of w st op) 0 j st (Nat.le_0_l j)). rewrite Nat.sub_0_r.
  destruct (run_acts new (Some (EvCrash, j)) 0 (acts_of w st op) st) as [s [| |]] eqn:R.
  - symmetry; apply exec_none_keep.
  - reflexivity.
  - cbn [resume]. rewrite (exists_at_pause w new op j st s R), G, Eop.
    rewrite (run_acts_none_shift new (skipn j (acts_of w st op)) j 0 s).
    destruct op; try (rewrite (acts_same_at_resume w new _ j st s R); reflexivity);
      [exfalso; apply Hg; reflexivity | exfalso; eapply Hs; reflexivity].
Qed.

(* the save preempted inside its first statement, before call j, and resumed *)
Lemma split_here : forall w (new : St) ins rest j st,
  exec w new None (ins :: rest) st =
  match pause w new 0 j (ins :: rest) st with
  | (stp, Crashed) => resume w new 0 j (ins :: rest) stp
  | r => r
  end.
Proof.
  intros w new ins rest j st. unfold pause. cbn [exec ev_here ev_next].
  destruct (i_guard ins && negb (m_exists st)) eqn:G; [symmetry; apply exec_none_keep|].
  destruct (i_op ins) eqn:Eop;
    try (apply (calls_split w new ins rest j st _ Eop G); [discriminate | intros b0; discriminate]).
  - destruct (m_need_save st); [symmetry; apply exec_none_keep | reflexivity].
  - symmetry; apply exec_none_keep.
Qed.

(* ... and inside a later statement, given the same for the rest of the program *)
Lemma split_later : forall w (new : St) ins rest i j,
  (forall st, exec w new None rest st =
              match pause w new i j rest st with (stp, Crashed) => resume w new i j rest stp | r => r end) ->
  forall st, exec w new None (ins :: rest) st =
             match pause w new (S i) j (ins :: rest) st with
             | (stp, Crashed) => resume w new (S i) j (ins :: rest) stp
             | r => r
             end.
Proof.
  intros w new ins rest i j IH st. unfold pause in *. cbn [exec resume ev_here ev_next].
  destruct (i_guard ins && negb (m_exists st)); [apply IH|].
  destruct (i_op ins) eqn:Eop.
  all: try (destruct (run_acts new None 0 (acts_of w st _) st) as [s [| |]] eqn:RR;
            [apply IH | reflexivity | exfalso; eapply run_acts_none_not_crashed; exact RR]).
  - destruct (m_need_save st); [apply IH | reflexivity].
  - apply IH.
Qed.

End Split.

(* The unlocked schedule of D23 on the generated programs: thread 1 (the scheduled save of new1 = TNew) is paused
   before call j of statement i (C12 takes the statement file_handle.flush(): it has serialised); a message makes
   the network TNext; stop()'s save of TNext runs completely; thread 1 resumes.  Positions before the serialisation
   are outside the meaning of the model: the real thread would serialise the newer network. *)
Definition d23_obs (f : fmt) (i j : nat) : conc_obs :=
  conc_unlocked (code f) c_main_only TOld TNew TNext TSb TSt 1 i j (hd [] (damage_of f)) (hd [] (damage_of f)) 1.
