(* Every reachable state of the core machine has a well-formed persisted tree (C11). *)
From Coq Require Import List NArith ZArith Bool String Lia.
From PMS Require Import Base.PyStr Base.PyInt Base.Exn Model.Codec Model.Rules Model.TableTypes
  Gen.Tables Model.Validate Model.Hex Model.Ota Model.Oracles Model.Gateway Spec.SerialApi
  Proofs.CodecProofs Proofs.ValidateProofs Proofs.GwLemmas Proofs.GwInv Model.Persist Proofs.PersistProofs.
Import ListNotations.
Open Scope string_scope.
Open Scope list_scope.
Open Scope Z_scope.

Lemma NoDup_keys_snoc {A} k (a : A) l : NoDup (map fst l) -> zassoc k l = None -> NoDup (map fst (l ++ [(k, a)])).
Proof.
  intros N H. rewrite map_app. apply (NoDup_Add (a := k) (l := map fst l)).
  - rewrite <- (app_nil_r (map fst l)) at 1. apply Add_app.
  - split; [exact N|apply zassoc_none_notin, H].
Qed.

Section PInv.
  Variable orc : oracles.
  Variable clock : Z.

  Definition vok : pstr -> bool := orc_version orc.

  (* what every reachable child / node / sensors dict satisfies *)
  Definition child_okP (kc : Z * child) : Prop :=
    c_id (snd kc) = fst kc /\ 0 <= fst kc <= 255 /\
    NoDup (map fst (c_values (snd kc))) /\
    Forall (fun kv => 0 <= fst kv /\ exists s, snd kv = PS s) (c_values (snd kc)).
  Definition node_okP (kn : Z * node) : Prop :=
    n_id (snd kn) = fst kn /\ 0 <= fst kn <= 255 /\
    NoDup (map fst (n_children (snd kn))) /\ Forall child_okP (n_children (snd kn)) /\
    0 <= n_batt (snd kn) <= 100 /\
    (vok (n_pver (snd kn)) = true \/ n_pver (snd kn) = s2p "1.4").
  Definition sens_ok (s : list (Z * node)) : Prop := NoDup (map fst s) /\ Forall node_okP s.
  Definition PInv (g : gw) : Prop := sens_ok (g_sensors g).

  Lemma node_okP_intro k nd :
    n_id nd = k -> 0 <= k <= 255 -> NoDup (map fst (n_children nd)) -> Forall child_okP (n_children nd) ->
    0 <= n_batt nd <= 100 -> (vok (n_pver nd) = true \/ n_pver nd = s2p "1.4") -> node_okP (k, nd).
  Proof. intros E R N F B V. exact (conj E (conj R (conj N (conj F (conj B V))))). Qed.
  Lemma child_okP_intro k c :
    c_id c = k -> 0 <= k <= 255 -> NoDup (map fst (c_values c)) ->
    Forall (fun kv => 0 <= fst kv /\ exists s, snd kv = PS s) (c_values c) -> child_okP (k, c).
  Proof. intros E R N F. exact (conj E (conj R (conj N F))). Qed.

  (* node_okP looks at the persisted attributes only *)
  Lemma node_okP_same k nd nd' :
    n_id nd' = n_id nd -> n_children nd' = n_children nd -> n_batt nd' = n_batt nd -> n_pver nd' = n_pver nd ->
    node_okP (k, nd) -> node_okP (k, nd').
  Proof. unfold node_okP. simpl. intros -> -> -> -> O. exact O. Qed.

  Lemma PInv_ext g g' : g_sensors g' = g_sensors g -> PInv g -> PInv g'.
  Proof. unfold PInv. intros ->. tauto. Qed.

  Lemma P_send g l : PInv g -> PInv (send g l).
  Proof. apply PInv_ext. destruct (send_frame g l) as (H & _). exact H. Qed.
  Lemma P_add_job g l : PInv g -> PInv (add_job_send g l).
  Proof. apply PInv_ext. destruct (add_job_send_frame g l) as (H & _). exact H. Qed.
  Lemma P_fold_add_job ls g : PInv g -> PInv (fold_left add_job_send ls g).
  Proof. apply PInv_ext. destruct (fold_add_job_send_frame ls g) as (H & _). exact H. Qed.
  Lemma P_alert g m : PInv g -> PInv (alert g m).
  Proof. apply PInv_ext. destruct (alert_frame g m) as (H & _). exact H. Qed.

  Lemma get_node_P g k nd : PInv g -> get_node g k = Some nd -> node_okP (k, nd).
  Proof. intros [_ F] H. exact (zassoc_Forall _ _ _ _ F H). Qed.

  (* the one way a handler changes a node: the node found under k is put back, changed *)
  Lemma P_put g k nd nd' : PInv g -> get_node g k = Some nd ->
    (node_okP (k, nd) -> node_okP (k, nd')) -> PInv (put_node g nd').
  Proof.
    intros I G O. pose proof (O (get_node_P g k nd I G)) as O'. pose proof (proj1 O') as E. simpl in E.
    destruct I as [N F]. unfold PInv, sens_ok, put_node. simpl. rewrite E.
    split; [apply NoDup_zset, N|apply Forall_zset; assumption].
  Qed.

  Lemma P_put_same g k nd nd' :
    PInv g -> get_node g k = Some nd ->
    n_id nd' = n_id nd -> n_children nd' = n_children nd -> n_batt nd' = n_batt nd -> n_pver nd' = n_pver nd ->
    PInv (put_node g nd').
  Proof. intros I G E1 E2 E3 E4. apply (P_put g k nd nd' I G), node_okP_same; assumption. Qed.

  Lemma P_add_sensor g sid : 0 <= sid <= 255 -> PInv g -> PInv (add_sensor g sid).
  Proof.
    intros R [N F]. unfold add_sensor. destruct (zhas sid (g_sensors g)) eqn:H; [split; assumption|].
    apply zhas_false in H. unfold PInv, sens_ok. simpl. split.
    - apply NoDup_keys_snoc; assumption.
    - apply Forall_app. split; [exact F|]. constructor; [|constructor].
      apply node_okP_intro; simpl; [reflexivity|lia|constructor|constructor|lia|right; reflexivity].
  Qed.

  Lemma P_route g m : PInv g -> PInv (fst (route g m)).
  Proof.
    intro I. unfold route. destruct (m_type m =? vt_presentation (tab g)); [exact I|].
    destruct (get_node g (m_node m)) as [nd|] eqn:G; [|exact I].
    destruct ((m_type m =? vt_stream (tab g)) || negb (sleeping nd)); [exact I|]. simpl fst.
    apply (P_put_same g (m_node m) nd); try assumption; reflexivity.
  Qed.
  Lemma P_route_opt g r : PInv g -> PInv (fst (route_opt g r)).
  Proof. destruct r; simpl; [apply P_route|tauto]. Qed.

  Lemma is_sensor_P g sid cid g1 b : PInv g -> is_sensor g sid cid = Ok (g1, b) -> PInv g1.
  Proof.
    intros I. unfold is_sensor.
    destruct (negb _ && node_id_ok sid && cf_ge20 (g_cf g)); [|intro H; injection H as <- _; exact I].
    destruct (sassoc _ _) as [ip|]; [|discriminate].
    pose proof (P_route g (mkMsg sid system_child_id (vt_internal (tab g)) 0 ip []) I) as I1.
    destruct (route g _) as [g1' r]. intro H. injection H as <- _. destruct r; [apply P_add_job|]; exact I1.
  Qed.

  Definition hP (r : res (gw * option msg)) : Prop :=
    match r with Ok (g', _) => PInv g' | Raise _ => True end.

  Lemma hP_bind {A} (r : res A) (k : A -> res (gw * option msg)) :
    (forall a, r = Ok a -> hP (k a)) -> hP (bind r k).
  Proof. destruct r; simpl; intro H; [apply H; reflexivity|exact Logic.I]. Qed.

  Lemma hP_known g sid cid (body : gw -> node -> res (gw * option msg)) :
    PInv g -> (forall nd, get_node g sid = Some nd -> hP (body g nd)) ->
    hP (do gr <- is_sensor g sid cid;
        let '(g1, known) := gr in
        if negb known then Ok (g1, None)
        else match get_node g1 sid with None => Raise KeyError | Some nd => body g1 nd end).
  Proof.
    intros I Hb. apply (known_node_frame hP); [intros; exact Logic.I| |exact Hb].
    intros g1 E. exact (is_sensor_P g _ _ _ _ I E).
  Qed.

  Lemma safe_version_ok p : vok (safe_version orc p) = true \/ safe_version orc p = s2p "1.4".
  Proof. unfold safe_version, vok. destruct (orc_version orc p) eqn:E; [left; exact E|right; reflexivity]. Qed.

  Lemma P_handle_presentation g m :
    0 <= m_node m <= 255 -> 0 <= m_child m <= 255 -> PInv g -> hP (handle_presentation orc g m).
  Proof.
    intros RN RC I. unfold handle_presentation. destruct (m_child m =? system_child_id).
    - pose proof (P_add_sensor g (m_node m) RN I) as I1.
      destruct (get_node (add_sensor g (m_node m)) (m_node m)) as [nd|] eqn:G; [|exact Logic.I].
      unfold hP. apply P_alert, (P_put _ (m_node m) nd _ I1 G).
      intros (E & R & N & F & B & _). apply node_okP_intro; [exact E|exact R|exact N|exact F|exact B|apply safe_version_ok].
    - apply hP_known; [exact I|]. intros nd G.
      destruct (zhas (m_child m) (n_children nd)) eqn:Z; [exact I|]. unfold hP. apply P_alert, (P_put g (m_node m) nd _ I G).
      intros (E & R & N & F & B & V). apply node_okP_intro; [exact E|exact R| | |exact B|exact V].
      + apply NoDup_keys_snoc; [exact N|apply zhas_false, Z].
      + apply Forall_app. split; [exact F|]. constructor; [|constructor].
        apply child_okP_intro; [reflexivity|exact RC|constructor|constructor].
  Qed.

  Lemma update_child_value_P k nd c vt v : 0 <= vt -> node_okP (k, nd) -> node_okP (k, update_child_value nd c vt v).
  Proof.
    intros RV O. pose proof O as (E & R & N & F & B & V). unfold update_child_value.
    destruct (zassoc c (n_children nd)) as [ch|] eqn:C; [|exact O].
    assert (O1 : node_okP (k, with_children nd (zset c (mkChild (c_id ch) (c_type ch) (c_desc ch) (zset vt (PS v) (c_values ch)))
                                                  (n_children nd)))).
    { apply node_okP_intro; try assumption.
      - apply NoDup_zset, N.
      - apply Forall_zset; [exact F|].
        pose proof (zassoc_Forall _ _ _ _ F C) as (E1 & R1 & N1 & F1).
        apply child_okP_intro; try assumption.
        + apply NoDup_zset, N1.
        + apply Forall_zset; [exact F1|]. split; [exact RV|]. exists v. reflexivity. }
    destruct (zassoc c (n_new nd)); [|exact O1].
    revert O1. apply node_okP_same; reflexivity.
  Qed.

  Lemma P_handle_set g m : 0 <= m_sub m -> PInv g -> hP (handle_set g m).
  Proof.
    intros RS I. unfold handle_set. apply hP_known; [exact I|]. intros nd G.
    set (nd' := update_child_value nd (m_child m) (m_sub m) (m_payload m)).
    assert (I2 : PInv (alert (put_node g nd') m)).
    { apply P_alert, (P_put g (m_node m) nd nd' I G), update_child_value_P, RS. }
    destruct (n_reboot nd'); [|exact I2].
    apply hP_bind. intros ireb _. apply hP_bind. intros r _. exact I2.
  Qed.

  Lemma P_handle_req g m : PInv g -> hP (handle_req g m).
  Proof.
    intros I. unfold handle_req. apply hP_known; [exact I|]. intros nd G.
    destruct (get_desired_value nd (m_child m) (m_sub m)); [|exact I].
    apply hP_bind. intros r _. exact I.
  Qed.

  Lemma next_id_range g nid : PInv g -> vt_max_node (tab g) <= 255 -> next_id g = Some nid -> 0 <= nid <= 255.
  Proof.
    intros [_ F] M. unfold next_id.
    set (n := match g_sensors g with [] => 1 | _ => _ end).
    destruct (Z.leb_spec n (vt_max_node (tab g))) as [LE|LE]; [|discriminate]. intro X. injection X as <-.
    split; [|lia]. subst n. clear LE. destruct (g_sensors g) as [|[k nd] s] eqn:S; [lia|].
    pose proof (proj1 (fold_max_ge (map fst ((k, nd) :: s)) (fst (hd (0, new_node 0) ((k, nd) :: s))))) as A.
    apply Forall_inv in F. destruct F as (_ & R & _). simpl in R, A. simpl. lia.
  Qed.

  Lemma P_handle_id_request g m : vt_max_node (tab g) <= 255 -> PInv g -> hP (handle_id_request g m).
  Proof.
    intros M I. unfold handle_id_request. destruct (next_id g) as [nid|] eqn:E; [|exact I].
    pose proof (P_add_sensor g nid (next_id_range g nid I M E) I) as I1.
    destruct (negb (zhas nid (g_sensors (add_sensor g nid)))); [exact I1|].
    apply hP_bind. intros x _. apply hP_bind. intros r _. apply P_alert. exact I1.
  Qed.

  Lemma battery_of_range p : 0 <= battery_of p <= 100.
  Proof.
    unfold battery_of. destruct (parse p) as [z|]; [|lia].
    destruct (Z.leb_spec 0 z); destruct (Z.leb_spec z 100); simpl; lia.
  Qed.

  Lemma P_node_attr f g m :
    (forall k nd p, node_okP (k, nd) -> node_okP (k, f nd p)) -> PInv g -> hP (node_attr_handler f g m).
  Proof.
    intros Hf I. unfold node_attr_handler. apply hP_known; [exact I|]. intros nd G.
    unfold hP. apply P_alert, (P_put g (m_node m) nd _ I G), Hf.
  Qed.

  Lemma set_batt_P k nd p : node_okP (k, nd) -> node_okP (k, set_batt nd p).
  Proof. intros (E & R & N & F & B & V). apply node_okP_intro; try assumption. apply battery_of_range. Qed.

  Lemma P_handle_smartsleep g k nd g' : PInv g -> get_node g k = Some nd ->
    handle_smartsleep orc g nd = Ok g' -> PInv g' /\ exists nd', get_node g' k = Some nd'.
  Proof.
    intros I G. unfold handle_smartsleep.
    set (nd2 := with_queue (init_smart_sleep nd) []).
    set (g1 := put_node g nd2).
    assert (I1 : PInv g1) by (apply (P_put_same g k nd nd2 I G); reflexivity).
    set (g2 := fold_left add_job_send (n_queue (init_smart_sleep nd)) g1).
    assert (I2 : PInv g2) by (apply P_fold_add_job; exact I1).
    destruct (flush_children_pre orc g2 nd2 (n_children nd2)) as [sets e].
    destruct e; [discriminate|]. intro H. inversion H; subst g'. split; [apply P_fold_add_job; exact I2|].
    assert (S : g_sensors (fold_left add_job_send sets g2) = g_sensors g1).
    { destruct (fold_add_job_send_frame sets g2) as (A & _). rewrite A. unfold g2.
      destruct (fold_add_job_send_frame (n_queue (init_smart_sleep nd)) g1) as (B & _). exact B. }
    unfold get_node. rewrite S. unfold g1, put_node. simpl.
    pose proof (get_node_P _ _ _ I G) as [E _]. simpl in E. rewrite E.
    rewrite zassoc_zset_same. eexists. reflexivity.
  Qed.

  Lemma P_handle_heartbeat g m : PInv g -> hP (handle_heartbeat_response orc g m).
  Proof.
    intros I. unfold handle_heartbeat_response. apply hP_known; [exact I|]. intros nd G. apply hP_bind. intros g2 E2.
    destruct (P_handle_smartsleep g (m_node m) nd g2 I G E2) as [I2 [nd2 G2]]. rewrite G2. unfold hP.
    apply P_alert, (P_put g2 (m_node m) nd2 _ I2 G2), node_okP_same; reflexivity.
  Qed.

  Lemma P_handle_pre_sleep g m : PInv g -> hP (handle_pre_sleep orc g m).
  Proof.
    intros I. unfold handle_pre_sleep. apply hP_known; [exact I|]. intros nd G. apply hP_bind. intros g2 E2.
    exact (proj1 (P_handle_smartsleep g (m_node m) nd g2 I G E2)).
  Qed.

  Lemma P_handle_discover g m : PInv g -> hP (handle_discover_response g m).
  Proof.
    intros I. unfold handle_discover_response. apply hP_bind. intros [g1 known] E.
    exact (is_sensor_P g _ _ _ _ I E).
  Qed.

  Lemma P_set_ota g o : PInv g -> PInv (set_ota g o).
  Proof. apply PInv_ext. reflexivity. Qed.

  Lemma P_respond_fw_config g m : PInv g -> hP (respond_fw_config g m).
  Proof.
    intros I. unfold respond_fw_config. destruct (fw_hex_to_int (m_payload m) 5); [|exact I].
    destruct (ota_get_fw (g_ota g) (m_node m) true None) as [o' r].
    destruct r as [[[t v] f]|]; [|apply P_set_ota; exact I].
    apply hP_bind. intros sub _. apply hP_bind. intros m' _. apply hP_bind. intros p _. apply P_set_ota. exact I.
  Qed.

  Lemma P_respond_fw g m : PInv g -> hP (respond_fw g m).
  Proof.
    intros I. unfold respond_fw. destruct (fw_hex_to_int (m_payload m) 3) as [ws|]; [|exact I].
    destruct ws as [|rt [|rv [|rb [|x ws]]]]; try exact I.
    destruct (ota_get_fw (g_ota g) (m_node m) false (Some (rt, rv))) as [o' r].
    destruct r as [[[t v] f]|]; [|apply P_set_ota; exact I].
    apply hP_bind. intros sub _. apply hP_bind. intros m' _. apply hP_bind. intros p _. apply P_set_ota. exact I.
  Qed.

  Lemma P_run_leaf h g m : vt_max_node (tab g) <= 255 -> PInv g -> hP (run_leaf orc clock h g m).
  Proof.
    intros M I. destruct h; unfold run_leaf; try exact Logic.I.
    - apply P_respond_fw_config; exact I.
    - apply P_respond_fw; exact I.
    - apply P_handle_id_request; assumption.
    - unfold handle_config. apply hP_bind. intros r _. exact I.
    - unfold handle_time. apply hP_bind. intros r _. exact I.
    - apply P_node_attr; [apply set_batt_P|exact I].
    - apply P_node_attr; [|exact I]. intros k nd p. apply node_okP_same; reflexivity.
    - apply P_node_attr; [|exact I]. intros k nd p. apply node_okP_same; reflexivity.
    - exact I.
    - unfold handle_gateway_ready, hP. apply P_alert. exact I.
    - unfold handle_gateway_ready_20. apply hP_bind. intros x _. apply hP_bind. intros r _. apply P_alert. exact I.
    - apply P_handle_heartbeat; exact I.
    - apply P_handle_discover; exact I.
    - apply P_node_attr; [|exact I]. intros k nd p. apply node_okP_same; reflexivity.
    - apply P_handle_pre_sleep; exact I.
  Qed.

  Lemma P_handle_internal g m : vt_max_node (tab g) <= 255 -> PInv g -> hP (handle_internal orc clock g m).
  Proof.
    intros M I. unfold handle_internal. destruct (sub_handler (tab g) (m_type m) (m_sub m)); [|exact I].
    apply P_run_leaf; assumption.
  Qed.

  Lemma P_handle_stream g m : vt_max_node (tab g) <= 255 -> PInv g -> hP (handle_stream orc clock g m).
  Proof.
    intros M I. unfold handle_stream. apply hP_bind. intros [g1 known] E.
    destruct known; cbn [negb]; [|exact (is_sensor_P g _ _ _ _ I E)].
    destruct (is_sensor_true g _ _ _ E) as [-> _]. destruct (sub_handler (tab g) (m_type m) (m_sub m)); [|exact I].
    apply hP_bind. intros [g2 resp] E2.
    pose proof (P_run_leaf h g m M I) as H. rewrite E2 in H. unfold hP. apply P_alert, H.
  Qed.

  Lemma max_node_cfg g : cfg_ok (g_cf g) -> vt_max_node (tab g) <= 255.
  Proof. intros [v [T _]]. unfold tab. rewrite T. destruct v; vm_compute; discriminate. Qed.

  Lemma validated_ranges g m : cfg_ok (g_cf g) -> gvalidate orc g m = true ->
    0 <= m_node m <= 255 /\ 0 <= m_sub m /\ (m_type m = 0 -> 0 <= m_child m <= 255).
  Proof.
    intros [v [T _]] V. unfold gvalidate, tab in V. rewrite T in V.
    rewrite validate_conforms in V. unfold spec_accepts in V.
    apply andb_true_iff in V as [V _]. apply andb_true_iff in V as [V S]. apply andb_true_iff in V as [V _].
    apply andb_true_iff in V as [V _]. apply andb_true_iff in V as [N SC]. unfold between in N, S.
    split; [lia|]. split; [lia|]. intro T0. unfold spec_child_ok in SC. rewrite T0 in SC. cbn in SC. unfold between in SC. lia.
  Qed.

  Theorem P_logic g l g' r : cfg_ok (g_cf g) -> PInv g ->
    logic orc clock g l = Ok (g', r) -> PInv g'.
  Proof.
    intros C I. pose proof (facts_of_cfg g C) as F. unfold logic.
    destruct (decode l) as [m|] eqn:D; [|intro H; inversion H; subst; exact I].
    destruct (gvalidate orc g m) eqn:V; cbn [negb]; [|intro H; inversion H; subst; exact I].
    pose proof (validated_type_range orc g m C V) as B.
    destruct (validated_ranges g m C V) as (RN & RS & RC).
    pose proof (max_node_cfg g C) as M.
    assert (H : exists h, type_handler (tab g) (m_type m) = Some h /\ hP (run_handler orc clock h g m)).
    { destruct (type_handler_cases g (m_type m) F B) as [[T0 E]|[[_ E]|[[_ E]|[[_ E]|[_ E]]]]];
        eexists; (split; [exact E|]); unfold run_handler.
      - apply P_handle_presentation; auto.
      - apply P_handle_set; assumption.
      - apply P_handle_req; assumption.
      - apply P_handle_internal; assumption.
      - apply P_handle_stream; assumption. }
    destruct H as (h & E & HP). rewrite E.
    destruct (run_handler orc clock h g m) as [[g1 reply]|e]; cbn [bind]; [|discriminate].
    simpl in HP. pose proof (P_route_opt g1 reply HP) as I2.
    destruct (route_opt g1 reply) as [g2 routed]. simpl in I2. intro X. inversion X; subst. exact I2.
  Qed.

  Lemma P_set_child_value g sid cid vt v mt a g' : PInv g ->
    set_child_value orc g sid cid vt v mt a = Ok g' -> PInv g'.
  Proof.
    intros I. unfold set_child_value. apply (known_node_frame (fun r => r = Ok g' -> PInv g')); [discriminate| |].
    { intros g1 E H. injection H as <-. exact (is_sensor_P g _ _ _ _ I E). }
    intros nd G. destruct (sleeping nd).
    - destruct (create_set_message orc g (n_id nd) cid vt v None None); cbn [bind]; [|discriminate].
      destruct (zassoc cid (n_new nd)) as [dv|]; [|discriminate].
      destruct (validate_child_state orc nd cid vt v); cbn [bind]; [|discriminate].
      destruct (vt_int vt) as [vti|]; [|discriminate]. intro H. inversion H; subst.
      apply (P_put_same g sid nd); try assumption; reflexivity.
    - destruct (create_set_message orc g (n_id nd) cid vt v mt a); cbn [bind]; [|discriminate].
      intro H. inversion H; subst. apply P_add_job. exact I.
  Qed.

  Lemma P_update_fw g nids fwt fwv bin g' : PInv g -> update_fw g nids fwt fwv bin = Ok g' -> PInv g'.
  Proof.
    intros I H. destruct (update_fw_closed _ _ _ _ _ _ H) as [->|(t & x & fwl & _ & _ & [->| ->])];
      [exact I|apply P_set_ota, I|].
    apply fold_left_preserves; [|apply P_set_ota, I]. intros g0 nid I0. unfold update_one.
    destruct (get_node g0 nid) as [nd|] eqn:G; [|exact I0].
    apply (P_put_same (set_ota g0 _) nid nd); try reflexivity; [apply P_set_ota; exact I0|exact G].
  Qed.

  Lemma P_recv g l : cfg_ok (g_cf g) -> PInv g -> PInv (recv orc clock g l).
  Proof.
    intros C I. unfold recv. destruct (cf_async (g_cf g)); [|exact I].
    destruct (logic orc clock g l) as [[g1 r]|e] eqn:E; [|exact I].
    pose proof (P_logic g l g1 r C I E) as I1. destruct r; [apply P_send|]; exact I1.
  Qed.

  Lemma P_pump g : cfg_ok (g_cf g) -> PInv g -> PInv (pump orc clock g).
  Proof.
    intros C I. unfold pump. destruct (g_jobs g) as [|[l|l] r]; [exact I| |].
    - destruct (logic orc clock (set_jobs g r) l) as [[g1 rep]|e] eqn:E; [|exact I].
      assert (I1 : PInv g1).
      { apply (P_logic (set_jobs g r) l g1 rep); [exact C|exact I|exact E]. }
      destruct rep; [apply P_send|]; exact I1.
    - apply P_send. exact I.
  Qed.

  Lemma P_step g o : cfg_ok (g_cf g) -> PInv g -> PInv (step orc clock g o).
  Proof.
    intros C I. destruct o as [l| |s c vt v mt a|ns t v b|b]; simpl.
    - apply P_recv; assumption.
    - apply P_pump; assumption.
    - destruct (set_child_value orc g s c vt v mt a) as [g'|e] eqn:E; [|exact I].
      exact (P_set_child_value _ _ _ _ _ _ _ _ I E).
    - destruct (update_fw g ns t v b) as [g'|e] eqn:E; [|exact I]. exact (P_update_fw _ _ _ _ _ _ I E).
    - exact I.
  Qed.

  Theorem P_run ops g : cfg_ok (g_cf g) -> Inv orc g -> PInv g -> Forall (op_ok) ops -> PInv (run orc clock g ops).
  Proof.
    revert g. induction ops as [|o ops IH]; intros g C I0 I F; [exact I|].
    inversion F; subst. destruct (step_ok orc clock g o C I0) as [I1 C1]; [assumption|].
    unfold run. simpl. apply IH; try assumption; [rewrite C1; exact C|apply P_step; assumption].
  Qed.

  Lemma keys_ok_map {A B} (f : A -> B) (l : list (Z * A)) :
    NoDup (map fst l) -> Forall (fun ka => 0 <= fst ka <= 255) l -> keys_ok (map (fun ka => (fst ka, f (snd ka))) l).
  Proof.
    intros N F. unfold keys_ok. rewrite map_map. split; [exact N|].
    rewrite Forall_map. revert F. apply Forall_impl. intros ka R. apply R.
  Qed.

  Lemma sens_ok_wf s : sens_ok s -> wf_tree vok (proj s).
  Proof.
    intros [N F]. split.
    - apply keys_ok_map; [exact N|]. revert F. apply Forall_impl. intros kn O. apply O.
    - unfold proj. rewrite Forall_map. revert F. apply Forall_impl. intros [k n] (_ & _ & NC & FC & B & V).
      split; [|split; [|split; assumption]].
      + apply keys_ok_map; [exact NC|]. revert FC. apply Forall_impl. intros kc O. apply O.
      + cbn [snd proj_node pn_children]. rewrite Forall_map. revert FC. apply Forall_impl.
        intros kc (_ & _ & NV & FV). split; [exact NV|].
        rewrite Forall_map. revert FV. apply Forall_impl. intros kv O. apply O.
  Qed.

End PInv.
