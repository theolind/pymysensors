(* C06: node ids are never handed out twice.  Built on the tree meaning (TreeProofs) and the
   persistence machine (DirtyProofs). *)
From Coq Require Import List NArith ZArith Bool String Lia Sorted.
From PMS Require Import Base.PyStr Base.PyInt Base.Exn Model.Codec Model.Rules Model.TableTypes
  Gen.Tables Model.Validate Model.Hex Model.Ota Model.Oracles Model.Gateway Spec.SerialApi
  Proofs.PyStrFacts Proofs.PyIntFacts Proofs.CodecProofs Proofs.ValidateProofs Proofs.GwLemmas Proofs.GwInv
  Spec.TreeMeaning Proofs.TreeProofs Proofs.TreeHistory Proofs.DirtyProofs.
Import ListNotations.
Open Scope string_scope.
Open Scope list_scope.
Open Scope Z_scope.

(* keys of a tree under the meaning function *)
Definition keys {A} (t : list (Z * A)) : list Z := map fst t.

Lemma keys_proj s : keys (proj s) = keys s.
Proof. unfold keys. rewrite proj_zmap. apply keys_zmap. Qed.

Lemma keys_tupd k f t : keys (tupd k f t) = keys t.
Proof.
  unfold tupd. destruct (zassoc k t) eqn:E; [|reflexivity]. revert E. unfold keys.
  induction t as [|[k' a'] t IH]; simpl; [discriminate|].
  destruct (Z.eqb_spec k k'); simpl; [intros _; subst; reflexivity|]. intro H. rewrite (IH H). reflexivity.
Qed.

(* the only ways the key set changes: a node presentation of an unknown node, an id assignment *)
Lemma keys_meaning sv k t m :
  keys (meaning sv k t m) = keys t \/
  (k = KNodePres /\ zhas (m_node m) t = false /\ keys (meaning sv k t m) = keys t ++ [m_node m]) \/
  (k = KIdRequest /\ tnext t <= 254 /\ keys (meaning sv k t m) = keys t ++ [tnext t]).
Proof.
  destruct k; unfold meaning; try (left; apply keys_tupd); try (left; reflexivity).
  - rewrite keys_tupd. unfold tadd. destruct (zhas (m_node m) t) eqn:E; [left; reflexivity|].
    right. left. split; [reflexivity|]. split; [reflexivity|]. apply map_app.
  - destruct (tnext t <=? 254) eqn:L; [|left; reflexivity].
    right. right. split; [reflexivity|]. split; [lia|]. apply map_app.
Qed.

Definition in_range (ks : list Z) : Prop := Forall (fun k => 0 <= k <= 255) ks.

Lemma tnext_pos t : in_range (keys t) -> 1 <= tnext t.
Proof.
  intro R. unfold tnext. destruct t as [|[k0 n0] r]; [lia|].
  inversion R; subst. cbn in *. destruct (fold_max_ge (map fst r) k0) as [A _]. lia.
Qed.

Lemma keys_load_tree t : keys (load_tree t) = keys t.
Proof. unfold keys, load_tree. rewrite map_map. reflexivity. Qed.

Section Ids.
  Variable orc : oracles.
  Variable clock : Z.

  Notation P g := (proj (g_sensors g)).

  (* a received line keeps every key in place, and adds at most one, in 0..255 *)
  Lemma mlv_keys v t l : in_range (keys t) ->
    in_range (keys (mlv orc v t l)) /\ incl (keys t) (keys (mlv orc v t l)).
  Proof.
    intro R. assert (R0 : in_range (keys t) /\ incl (keys t) (keys t)) by (split; [exact R|apply incl_refl]).
    unfold mlv, meaning_line. destruct (decode l) as [m|]; [|exact R0].
    destruct (accv orc v m) eqn:V; [|exact R0].
    destruct (keys_meaning (safe_version orc) (kind_of v m) t m) as [->|[(_ & _ & ->)|(_ & L & ->)]]; [exact R0| |];
      (split; [apply Forall_app; split; [exact R|constructor; [|constructor]]|apply incl_appl, incl_refl]).
    - apply node_id_ok_iff, (validate_node_id_ok _ _ _ _ V).
    - pose proof (tnext_pos t R). lia.
  Qed.

  (* which line the dispatcher processes in a step, and the tree after the step *)
  Definition line_run (g : gw) (o : op) : option pstr :=
    match o with
    | Recv l => if cf_async (g_cf g) then Some l else None
    | Pump => match g_jobs g with JLogic l :: _ => Some l | _ => None end
    | _ => None
    end.

  Lemma line_run_dispatched g o : line_run g o = dispatched g o.
  Proof. reflexivity. Qed.

  Lemma step_tree v g o : cfg_is v (g_cf g) -> Inv orc g ->
    P (step orc clock g o) = match line_run g o with Some l => mlv orc v (P g) l | None => P g end.
  Proof.
    intros CI I. rewrite line_run_dispatched.
    destruct (step_dispatched orc clock v g o CI I) as [[j E] _]. exact (eff_tree _ _ _ _ E).
  Qed.

  (* C06.2: no step removes a key (or moves it), and the keys stay in 0..255 *)
  Lemma step_keys v g o : cfg_is v (g_cf g) -> Inv orc g -> in_range (keys (g_sensors g)) ->
    in_range (keys (g_sensors (step orc clock g o))) /\
    incl (keys (g_sensors g)) (keys (g_sensors (step orc clock g o))).
  Proof.
    intros CI I. rewrite <- !keys_proj, (step_tree v g o CI I).
    destruct (line_run g o) as [l|]; [apply mlv_keys|]. intro R. split; [exact R|apply incl_refl].
  Qed.

  Lemma run_keys v ops : forall g, cfg_is v (g_cf g) -> Inv orc g -> Forall op_ok ops ->
    in_range (keys (g_sensors g)) ->
    in_range (keys (g_sensors (run orc clock g ops))) /\
    incl (keys (g_sensors g)) (keys (g_sensors (run orc clock g ops))).
  Proof.
    induction ops as [|o ops IH]; intros g CI I F R; [split; [exact R|apply incl_refl]|].
    inversion F as [|? ? O F']; subst. unfold run. cbn [fold_left].
    destruct (step_ok orc clock g o (cfg_is_ok _ _ CI) I O) as [I1 C1].
    destruct (step_keys v g o CI I R) as [R1 M1]. rewrite <- C1 in CI.
    destruct (IH _ CI I1 F' R1) as [R2 M2]. split; [exact R2|eapply incl_tran; eassumption].
  Qed.

  (* C06.1: the id carried by an id response *)
  Lemma copy_payload m rp r p : copy m rp = Ok r -> r_payload rp = Some p -> m_payload r = p.
  Proof.
    unfold copy. destruct (decode (encode m)) as [m'|]; [|discriminate].
    intros H E. inversion H. subst. unfold override. cbn. rewrite E. reflexivity.
  Qed.

  Theorem id_response_fresh v g m g' r : cfg_is v (g_cf g) -> in_range (keys (g_sensors g)) ->
    handle_id_request g m = Ok (g', Some r) ->
    exists nid, m_payload r = print nid /\ 1 <= nid <= 254 /\
                zhas nid (g_sensors g) = false /\ zhas nid (g_sensors g') = true /\
                (forall k, zhas k (g_sensors g) = true -> k < nid) /\
                g_sensors g' = g_sensors g ++ [(nid, new_node nid)].
  Proof.
    intros CI R. rewrite (handle_id_request_spec g m (max_node_cfg v g CI)).
    destruct (tnext (P g) <=? 254) eqn:L; [|discriminate].
    destruct (internal_member g "I_ID_RESPONSE") as [ir|]; cbn [bind]; [|discriminate].
    destruct (copy m (mkRepl None None None (Some 0) (Some ir) (Some (print (tnext (P g)))))) as [r0|] eqn:CP;
      cbn [bind]; [|discriminate].
    intro H. inversion H. subst. clear H.
    exists (tnext (P g)).
    assert (FR : zhas (tnext (P g)) (g_sensors g) = false).
    { rewrite <- known_proj. apply tnext_fresh. }
    split; [eapply copy_payload; [exact CP|reflexivity]|].
    split; [rewrite <- keys_proj in R; pose proof (tnext_pos _ R); lia|].
    split; [exact FR|].
    rewrite sensors_alert. split; [apply zhas_add_sensor|].
    split.
    - intros k K. apply tnext_gt. rewrite <- known_proj in K. exact K.
    - unfold add_sensor. rewrite FR. reflexivity.
  Qed.

  (* C06.3: no id left: no response, state unchanged *)
  Theorem exhaustion_silent v g m k : cfg_is v (g_cf g) ->
    zhas k (g_sensors g) = true -> 254 <= k -> handle_id_request g m = Ok (g, None).
  Proof.
    intros CI K L. rewrite (handle_id_request_spec g m (max_node_cfg v g CI)).
    assert (G : k < tnext (P g)) by (apply tnext_gt; rewrite <- known_proj in K; exact K).
    destruct (tnext (P g) <=? 254) eqn:E; [lia|reflexivity].
  Qed.

End Ids.

(* histories, with periodic saves and clean stop/restart *)
Definition is_id_request (m : msg) : bool := (m_type m =? 3) && (m_sub m =? 3).

Section IdsHistory.
  Variable orc : oracles.
  Variable clock : Z.

  Notation P g := (proj (g_sensors g)).

  (* the id that processing line l hands out in a state whose tree is t (None: no id response) *)
  Definition id_of_line (v : ver) (t : tree) (l : pstr) : option Z :=
    match decode l with
    | Some m => if accv orc v m && is_id_request m && (tnext t <=? 254) then Some (tnext t) else None
    | None => None
    end.

  Definition id_of_pstep (v : ver) (s : pstate) (o : pop) : option Z :=
    match o with
    | POp o => match line_run (fst s) o with
               | Some l => id_of_line v (P (fst s)) l
               | None => None
               end
    | _ => None
    end.

  Fixpoint ids_handed (v : ver) (s : pstate) (pops : list pop) : list Z :=
    match pops with
    | [] => []
    | o :: r => (match id_of_pstep v s o with Some n => [n] | None => [] end) ++
                ids_handed v (pstep orc clock s o) r
    end.

  Lemma id_line_adds v t l n : id_of_line v t l = Some n ->
    n = tnext t /\ tnext t <= 254 /\ mlv orc v t l = t ++ [(n, tnew n)].
  Proof.
    unfold id_of_line, mlv, meaning_line. destruct (decode l) as [m|]; [|discriminate].
    destruct (accv orc v m); [|discriminate]. unfold is_id_request, kind_of. cbn [andb].
    destruct (Z.eqb_spec (m_type m) 3) as [->|]; [|discriminate].
    destruct (Z.eqb_spec (m_sub m) 3) as [->|]; [|discriminate]. cbn.
    destruct (tnext t <=? 254) eqn:L; [|discriminate].
    intro H. inversion H. split; [reflexivity|]. split; [lia|reflexivity].
  Qed.

  (* periodic saves anywhere; restarts only with persistence enabled *)
  Definition pop_ok2 (cf : config) (o : pop) : Prop :=
    match o with POp o => op_ok o | PSave => True | PRestart => cf_persist cf = true end.

  Definition IInv (cf : config) (s : pstate) : Prop :=
    PInv orc cf s /\ in_range (keys (g_sensors (fst s))).

  (* a step of the persistence machine keeps the known ids; an id handed out is in 1..254, above
     every known id, and known afterwards *)
  Lemma ipstep v cf s o : cfg_is v cf -> pop_ok2 cf o -> IInv cf s ->
    IInv cf (pstep orc clock s o) /\
    (forall k, zhas k (g_sensors (fst s)) = true -> zhas k (g_sensors (fst (pstep orc clock s o))) = true) /\
    (forall n, id_of_pstep v s o = Some n ->
               1 <= n <= 254 /\ (forall k, zhas k (g_sensors (fst s)) = true -> k < n) /\
               zhas n (g_sensors (fst (pstep orc clock s o))) = true).
  Proof.
    intros CI O [H R].
    assert (H' : PInv orc cf (pstep orc clock s o)).
    { apply (pstep_inv orc clock v); [exact CI|destruct o; [exact O|exact Logic.I|exact Logic.I]| |exact H].
      intros ->. exact O. }
    unfold IInv. destruct s as [g d], H as (C & I & S). cbn [fst snd] in *. subst cf.
    destruct o as [o| |]; cbn [pstep fst snd id_of_pstep] in *.
    - destruct (step_keys orc clock v g o CI I R) as [R1 M1].
      split; [split; assumption|]. split; [intros k K; apply zhas_In, M1, zhas_In, K|].
      intros n N. pose proof (step_tree orc clock v g o CI I) as T.
      destruct (line_run g o) as [l|]; [|discriminate N].
      destruct (id_line_adds v (P g) l n N) as (E & L & ML).
      rewrite <- keys_proj in R. pose proof (tnext_pos _ R) as POS.
      split; [lia|]. split.
      + intros k K. rewrite E. apply tnext_gt. rewrite <- known_proj in K. exact K.
      + rewrite <- known_proj. unfold known. rewrite T, ML, zhas_app.
        unfold zhas at 2. cbn. rewrite Z.eqb_refl. apply orb_true_r.
    - assert (E : g_sensors (fst (save_tick g d)) = g_sensors g)
        by (unfold save_tick; destruct (cf_persist (g_cf g) && g_dirty g); reflexivity).
      rewrite E. split; [split; assumption|]. split; [auto|discriminate].
    - assert (KS : keys (g_sensors (fst (restart g d))) = keys (g_sensors g)).
      { rewrite (restart_spec g d O (S O)). cbn [fst g_sensors set_dirty set_sensors].
        rewrite keys_load_tree. apply keys_proj. }
      split; [split; [exact H'|rewrite KS; exact R]|]. split; [|discriminate].
      intros k K. apply zhas_In. fold (keys (g_sensors (fst (restart g d)))). rewrite KS. apply zhas_In. exact K.
  Qed.

  Lemma ids_gen v cf pops : cfg_is v cf -> Forall (pop_ok2 cf) pops -> forall s, IInv cf s ->
    NoDup (ids_handed v s pops) /\ StronglySorted Z.lt (ids_handed v s pops) /\
    Forall (fun n => 1 <= n <= 254 /\ forall k, zhas k (g_sensors (fst s)) = true -> k < n)
           (ids_handed v s pops).
  Proof.
    intros CI. induction pops as [|o r IH]; intros F s H; cbn [ids_handed].
    - split; [constructor|]. split; constructor.
    - inversion F as [|? ? O F']; subst.
      destruct (ipstep v cf s o CI O H) as (H1 & MONO & IDS).
      destruct (IH F' _ H1) as (ND & SS & FA).
      assert (FA' : Forall (fun n => 1 <= n <= 254 /\ forall k, zhas k (g_sensors (fst s)) = true -> k < n)
                           (ids_handed v (pstep orc clock s o) r)).
      { eapply Forall_impl; [|exact FA]. intros n [B K]. split; [exact B|]. intros k Hk. apply K, MONO, Hk. }
      destruct (id_of_pstep v s o) as [n|]; cbn [app]; [|split; [exact ND|split; [exact SS|exact FA']]].
      destruct (IDS n eq_refl) as (B & GT & IN).
      assert (LT : Forall (Z.lt n) (ids_handed v (pstep orc clock s o) r)).
      { eapply Forall_impl; [|exact FA]. intros x [_ K]. apply K. exact IN. }
      split; [|split].
      + constructor; [|exact ND]. intro X. rewrite Forall_forall in LT. specialize (LT _ X). lia.
      + constructor; assumption.
      + constructor; [split; assumption|exact FA'].
  Qed.

  Lemma IInv_init cf : IInv cf (gw_init cf, None).
  Proof. split; [apply PInv_init|constructor]. Qed.

  Lemma prun_IInv v cf pops : cfg_is v cf -> Forall (pop_ok2 cf) pops -> forall s, IInv cf s ->
    IInv cf (prun orc clock s pops).
  Proof.
    intros CI. induction pops as [|p r IH]; intros F0 s0 H0; [exact H0|].
    inversion F0 as [|? ? Op Fr]; subst. apply IH; [exact Fr|].
    exact (proj1 (ipstep v cf s0 p CI Op H0)).
  Qed.

  (* C06.4: a clean stop/restart keeps every reserved id (the whole key list, in order) *)
  Theorem restart_keeps_reservations v cf pops : cfg_is v cf -> cf_persist cf = true -> Forall pop_ok pops ->
    let s := prun orc clock (gw_init cf, None) pops in
    keys (g_sensors (fst (pstep orc clock s PRestart))) = keys (g_sensors (fst s)).
  Proof.
    intros CI PE F s. destruct (stop_loses_nothing orc clock v cf pops CI PE F) as (_ & _ & L).
    fold s in L. rewrite L, keys_load_tree. apply keys_proj.
  Qed.
End IdsHistory.
