(* Lemmas for C17 (MQTT topic mapping, subscriptions, callbacks). *)
From Coq Require Import String.
From Coq Require Import List NArith ZArith Bool Lia.
From PMS Require Import Base.PyStr Base.PyInt Base.Exn Model.Codec Gen.MqttConsts Model.Mqtt
  Spec.MqttSpec Proofs.PyStrFacts Proofs.PyIntFacts Proofs.CodecProofs.
Import ListNotations.
Open Scope N_scope.

Lemma split_app d a b : split d (a ++ d :: b) = split d a ++ split d b.
Proof.
  induction a as [|c a IH]; simpl.
  - rewrite N.eqb_refl. reflexivity.
  - rewrite IH. destruct (N.eqb c d); [reflexivity|].
    pose proof (split_nonempty d a) as NE.
    destruct (split d a) as [|h t]; [contradiction|]. reflexivity.
Qed.

Lemma join_app d a b : a <> [] -> b <> [] -> join d (a ++ b) = join d a ++ d ++ join d b.
Proof.
  induction a as [|x [|y a] IH]; intros Ha Hb; [contradiction| |].
  - destruct b; [contradiction|]. reflexivity.
  - change (join d ((x :: y :: a) ++ b)) with (x ++ d ++ join d ((y :: a) ++ b)).
    rewrite IH by (discriminate || assumption). cbn [join]. rewrite <- !app_assoc. reflexivity.
Qed.

Lemma split_join d l : l <> [] -> Forall (fun f => mem_N d f = false) l -> split d (join [d] l) = l.
Proof.
  induction l as [|x [|y l] IH]; intros NE F; [contradiction| |]; inversion F as [|? ? Fx Fl]; subst.
  - apply split_no_delim, Fx.
  - change (join [d] (x :: y :: l)) with (x ++ d :: join [d] (y :: l)).
    rewrite split_app_delim, IH by (discriminate || assumption). reflexivity.
Qed.

Lemma split_length_delim d s : mem_N d s = true -> (2 <= length (split d s))%nat.
Proof.
  intro H. apply mem_N_In, in_split in H as [a [b ->]]. rewrite split_app, app_length.
  pose proof (split_nonempty d a). pose proof (split_nonempty d b).
  destruct (split d a); [contradiction|]. destruct (split d b); [contradiction|]. simpl. lia.
Qed.

Lemma mem_delim_app d a b : mem_N d (a ++ d :: b) = true.
Proof. rewrite mem_N_app. simpl. rewrite N.eqb_refl. apply orb_true_r. Qed.

Lemma slice_to_app_neg {A} (a b : list A) k :
  (k < 0)%Z -> Z.to_nat (- k) = length b -> slice_to (a ++ b) k = a.
Proof.
  intros K L. unfold slice_to, norm_idx. apply Z.ltb_lt in K as K'. rewrite K', app_length.
  replace (Z.to_nat (Z.of_nat (length a + length b) + k)) with (length a + 0)%nat by lia.
  rewrite firstn_app_2. apply app_nil_r.
Qed.

Lemma get_idx_ok {A} (l : list A) i :
  (i < 0)%Z -> (Z.to_nat (- i) <= length l)%nat -> exists x, get_idx l i = Ok x.
Proof.
  intros I L. unfold get_idx, item_pos. apply Z.ltb_lt in I as I'. rewrite I'.
  destruct (Z.leb_spec 0 (i + Z.of_nat (length l))); [|lia].
  destruct (Z.ltb_spec (i + Z.of_nat (length l)) (Z.of_nat (length l))); [|lia]. cbn [andb].
  destruct (nth_error l (Z.to_nat (i + Z.of_nat (length l)))) eqn:N; [eexists; reflexivity|].
  apply nth_error_None in N. lia.
Qed.

Lemma consts_parse :
  min_levels = 6%Z /\ slice_prefix = (-5)%Z /\ slice_tail = (-5)%Z /\ ack_index = 3%Z /\ enc_trim = (-2)%Z.
Proof. repeat split; reflexivity. Qed.

Lemma pub_caught_all e : pub_caught e = true.
Proof. destruct e; reflexivity. Qed.
Lemma sub_caught_all e : sub_caught e = true.
Proof. destruct e; reflexivity. Qed.
Lemma sub_qos_index_val : sub_qos_index = (-2)%Z.
Proof. reflexivity. Qed.

Lemma print_no_slash z : level (print z).
Proof.
  unfold level. pose proof (print_numchars z) as F. induction F as [|c l H _ IH]; [reflexivity|].
  simpl. rewrite IH. unfold numchars in H. simpl in H.
  repeat (destruct H as [<-|H]; [reflexivity|]). destruct H.
Qed.

Definition hdr_levels (m : msg) : list pstr :=
  [print (m_node m); print (m_child m); print (m_type m); print (m_ack m); print (m_sub m)].

Lemma topic_of_join m : topic_of m = slash :: join [slash] (hdr_levels m).
Proof. reflexivity. Qed.

Lemma hdr_levels_free m : Forall level (hdr_levels m).
Proof. repeat constructor; apply print_no_slash. Qed.

Lemma to_mqtt_decoded l m : decode l = Some m -> to_mqtt l = Ok (topic_of m, m_payload m, m_ack m).
Proof.
  intro D. unfold to_mqtt. rewrite D. do 3 f_equal.
  unfold encode_with. cbn [m_node m_child m_type m_ack m_sub m_payload].
  change [print (m_node m); print (m_child m); print (m_type m); print (m_ack m); print (m_sub m); []]
    with (hdr_levels m ++ [[]]).
  rewrite join_app, topic_of_join by discriminate. cbn [join]. rewrite app_nil_r, <- app_assoc.
  apply (slice_to_app_neg (slash :: _) [slash; nl]); reflexivity.
Qed.

(* parse_mqtt_to_message with the slice bounds and the index resolved: the last five levels
   are the command, what stands before them must be the prefix *)
Lemma from_mqtt_eq pfx t p q :
  from_mqtt pfx t p q =
  if (Z.of_nat (length (split slash t)) <? 6)%Z then Ok None
  else if pstr_eqb (join [slash] (firstn (length (split slash t) - 5) (split slash t))) pfx
       then Ok (Some (join [semi] (replace_nth 3 (skipn (length (split slash t) - 5) (split slash t)) (ack_str q) ++ [p])))
       else Ok None.
Proof.
  unfold from_mqtt. set (L := split slash t). change min_levels with 6%Z.
  destruct (Z.ltb_spec (Z.of_nat (length L)) 6); [reflexivity|].
  unfold slice_to, slice_from, norm_idx, slice_prefix, slice_tail. change (-5 <? 0)%Z with true.
  replace (Z.to_nat (Z.of_nat (length L) + -5)) with (length L - 5)%nat by lia.
  destruct (pstr_eqb _ pfx); [|reflexivity]. cbn [negb].
  unfold set_idx, item_pos. rewrite skipn_length.
  replace (length L - (length L - 5))%nat with 5%nat by lia. reflexivity.
Qed.

Lemma from_mqtt_accept pfx (ls : list pstr) p q :
  length ls = 5%nat -> Forall level ls ->
  from_mqtt pfx (pfx ++ slash :: join [slash] ls) p q
  = Ok (Some (join [semi] (replace_nth 3 ls (ack_str q) ++ [p]))).
Proof.
  intros L F. rewrite from_mqtt_eq.
  rewrite split_app, split_join, app_length, L by (exact F || (destruct ls; discriminate)).
  pose proof (split_nonempty slash pfx) as NE. set (S := split slash pfx) in *.
  destruct (Z.ltb_spec (Z.of_nat (length S + 5)) 6); [destruct S; [contradiction|simpl in *; lia]|].
  replace (length S + 5 - 5)%nat with (length S) by lia.
  rewrite firstn_app, firstn_all, skipn_app, skipn_all, Nat.sub_diag. cbn [firstn skipn app].
  unfold S. rewrite app_nil_r, join_split, pstr_eqb_refl. reflexivity.
Qed.

Lemma from_mqtt_some pfx t p q line :
  from_mqtt pfx t p q = Ok (Some line) <->
  exists ls, length ls = 5%nat /\ Forall level ls /\ t = pfx ++ slash :: join [slash] ls /\
             line = join [semi] (replace_nth 3 ls (ack_str q) ++ [p]).
Proof.
  split; [|intros (ls & L & F & -> & ->); apply from_mqtt_accept; assumption].
  intro H. enough (exists ls, length ls = 5%nat /\ Forall level ls /\ t = pfx ++ slash :: join [slash] ls)
    as (ls & L & F & ->) by (rewrite from_mqtt_accept in H by assumption; exists ls; intuition congruence).
  revert H. rewrite from_mqtt_eq. set (L := split slash t). intro H.
  destruct (Z.ltb_spec (Z.of_nat (length L)) 6) as [|E]; [discriminate|].
  destruct (pstr_eqb _ pfx) eqn:P; [|discriminate]. apply pstr_eqb_eq in P.
  exists (skipn (length L - 5) L). split; [rewrite skipn_length; lia|].
  pose proof (split_fields_no_delim slash t) as FR. fold L in FR.
  rewrite <- (firstn_skipn (length L - 5) L) in FR. apply Forall_app in FR. split; [tauto|].
  rewrite <- P, <- (join_split slash t) at 1. fold L.
  rewrite <- (firstn_skipn (length L - 5) L) at 1.
  apply join_app; intro Z0; apply (f_equal (@length pstr)) in Z0;
    rewrite ?firstn_length, ?skipn_length in Z0; simpl in Z0; lia.
Qed.

Lemma five_levels (ls : list pstr) : length ls = 5%nat -> exists l1 l2 l3 l4 l5, ls = [l1; l2; l3; l4; l5].
Proof.
  destruct ls as [|l1 [|l2 [|l3 [|l4 [|l5 [|? ?]]]]]]; try discriminate. intros _.
  do 5 eexists; reflexivity.
Qed.

Lemma from_mqtt_topic_of pfx m p q :
  from_mqtt pfx (pfx ++ topic_of m) p q = Ok (Some (line_of (delivered m q p))).
Proof.
  rewrite topic_of_join, from_mqtt_accept by (reflexivity || apply hdr_levels_free).
  unfold line_of, delivered, ack_str. cbn. destruct (0 <? q)%Z; reflexivity.
Qed.

Lemma delivered_same m : (m_ack m = 0 \/ m_ack m = 1)%Z -> delivered m (m_ack m) (m_payload m) = m.
Proof. destruct m as [a b c d e f]. simpl. intros [-> | ->]; reflexivity. Qed.

Lemma catch_all_ok caught r : (forall e, caught e = true) -> catch caught r = Ok tt.
Proof. intro H. destruct r as [[]|e]; simpl; [reflexivity|rewrite H; reflexivity]. Qed.

(* The generated f-string templates of init_topics and _handle_presentation render to the
   topics Spec/MqttSpec.v writes down independently: the three lemmas below hold by
   computation and are where the two meet. *)
Definition child_spec_topics (n c : Z) : list pstr :=
  [child_topic [] n c 1; child_topic [] n c 2; stream_topic [] n].

Lemma init_literals_spec : init_topic_literals = [presentation_topic []; internal_topic []].
Proof. reflexivity. Qed.

Lemma pres_templates_spec n c :
  child_topics pres_child_tmpl pres_child_types n c ++ [render pres_node_tmpl n c 0] = child_spec_topics n c.
Proof. reflexivity. Qed.

Definition restored_topics (st : net) : list pstr :=
  flat_map (fun nc => flat_map (fun c => [child_topic [] (fst nc) c 1; child_topic [] (fst nc) c 2]) (snd nc)) st
  ++ map (fun nc => stream_topic [] (fst nc)) st.

Lemma init_templates_spec st :
  flat_map (fun nc => flat_map (fun c => child_topics init_child_tmpl init_child_types (fst nc) c) (snd nc)) st
  ++ map (fun nc => render init_node_tmpl (fst nc) 0 0) st = restored_topics st.
Proof. reflexivity. Qed.

(* every Spec topic starts with '/': under any prefix it has at least two levels *)
Definition two_levels (pfx t : pstr) : Prop := mem_N slash (pfx ++ t) = true.

Lemma child_spec_topics_slash pfx n c : Forall (two_levels pfx) (child_spec_topics n c).
Proof. repeat constructor; apply (mem_delim_app slash pfx). Qed.

Lemma restored_topics_slash pfx st : Forall (two_levels pfx) (restored_topics st).
Proof.
  apply Forall_forall. intros t H. apply in_app_or in H as [H|H].
  - apply in_flat_map in H as [[n cs] [_ H]]. apply in_flat_map in H as [c [_ [<-|[<-|[]]]]];
      apply (mem_delim_app slash pfx).
  - apply in_map_iff in H as [[n cs] [<- _]]. apply (mem_delim_app slash pfx).
Qed.

Lemma restored_topics_cover st n c : has_child st n c -> incl (child_spec_topics n c) (restored_topics st).
Proof.
  intros [cs [Hn Hc]] t [<-|[<-|[<-|[]]]]; apply in_or_app; [left|left|right];
    try (apply in_flat_map; exists (n, cs); split; [exact Hn|];
         apply in_flat_map; exists c; split; [exact Hc|]; simpl; tauto).
  apply in_map_iff. exists (n, cs). split; [reflexivity|exact Hn].
Qed.

(* pfx ++ child_topic [] n c t is child_topic pfx n c t *)
Lemma covered_by pfx (subs : list (pstr * Z)) n c :
  incl (map (app pfx) (child_spec_topics n c)) (map fst subs) -> child_covered pfx subs n c.
Proof. intro H. repeat split; apply H; simpl; tauto. Qed.

Lemma subscribed_app a b t : subscribed (a ++ b) t <-> subscribed a t \/ subscribed b t.
Proof. unfold subscribed. rewrite map_app. apply in_app_iff. Qed.

Lemma covered_mono pfx a b n c :
  (forall t, subscribed a t -> subscribed b t) -> child_covered pfx a n c -> child_covered pfx b n c.
Proof. intros H (A & B & C). repeat split; apply H; assumption. Qed.

Lemma has_child_cons m cs st n c :
  has_child ((m, cs) :: st) n c <-> m = n /\ In c cs \/ has_child st n c.
Proof.
  unfold has_child. split.
  - intros [cs' [[E|I] Hc]]; [injection E as <- <-; tauto|right; eauto].
  - intros [[<- Hc]|[cs' [I Hc]]]; [exists cs|exists cs']; simpl; tauto.
Qed.

Lemma has_child_add_sensor st n n' c : has_child (add_sensor st n) n' c <-> has_child st n' c.
Proof.
  unfold add_sensor. destruct (has_node st n); [tauto|]. unfold has_child. split.
  - intros [cs [H1 H2]]. apply in_app_or in H1 as [H1|[H1|[]]]; [exists cs; tauto|].
    inversion H1; subst. destruct H2.
  - intros [cs [H1 H2]]. exists cs. split; [apply in_or_app; tauto|exact H2].
Qed.

Lemma mem_Z_In x l : mem_Z x l = true <-> In x l.
Proof.
  induction l as [|y l IH]; simpl; [split; [discriminate|tauto]|].
  rewrite orb_true_iff, IH, Z.eqb_eq. split; intros [H|H]; auto.
Qed.

Lemma add_child_spec n c st : forall st', add_child st n c = Some st' ->
  forall n' c', has_child st' n' c' <-> has_child st n' c' \/ n' = n /\ c' = c.
Proof.
  induction st as [|[m cs] st IH]; intro st'; simpl; [discriminate|].
  destruct (Z.eqb_spec m n) as [->|Ne].
  - destruct (mem_Z c cs); [discriminate|]. intros [= <-] n' c'.
    rewrite !has_child_cons, in_app_iff. simpl. intuition congruence.
  - destruct (add_child st n c) as [st1|]; [|discriminate]. intros [= <-] n' c'.
    rewrite !has_child_cons, (IH _ eq_refl). tauto.
Qed.

Lemma add_child_none n c st : add_child st n c = None -> has_node st n = true -> has_child st n c.
Proof.
  unfold has_node. induction st as [|[m cs] st IH]; simpl; [discriminate|].
  rewrite has_child_cons, (Z.eqb_sym n). destruct (Z.eqb_spec m n) as [->|Ne].
  - destruct (mem_Z c cs) eqn:M; [|discriminate]. left. split; [reflexivity|apply mem_Z_In, M].
  - destruct (add_child st n c); [discriminate|]. right. apply IH; [reflexivity|assumption].
Qed.

(* how a gateway state may differ from an earlier one of the same run: subscriptions are
   kept, children are kept, a new child is covered *)
Definition grown (pfx : pstr) (s s' : mstate) : Prop :=
  (forall t, subscribed (ms_subs s) t -> subscribed (ms_subs s') t) /\
  (forall n c, has_child (ms_net s) n c -> has_child (ms_net s') n c) /\
  (forall n c, has_child (ms_net s') n c -> has_child (ms_net s) n c \/ child_covered pfx (ms_subs s') n c).

Lemma grown_refl pfx s : grown pfx s s.
Proof. repeat split; auto. Qed.

Lemma grown_trans pfx s1 s2 s3 : grown pfx s1 s2 -> grown pfx s2 s3 -> grown pfx s1 s3.
Proof.
  intros (M1 & A1 & B1) (M2 & A2 & B2). split; [auto|]. split; [auto|].
  intros n c H. destruct (B2 n c H) as [K|K]; [|right; exact K].
  destruct (B1 n c K) as [K1|K1]; [left; exact K1|right]. revert K1. apply covered_mono, M2.
Qed.

Section Sub.
  Variable sub : nat -> pstr -> Z -> res unit.

  Lemma hsub_topics pfx topics : forall k l,
    handle_subscription sub pfx k topics = Ok l -> map fst l = map (app pfx) topics.
  Proof.
    induction topics as [|t r IH]; intros k l; cbn [handle_subscription]; [intros [= <-]; reflexivity|].
    destruct (match _ with Ok z => Ok z | Raise e => _ end) as [z|]; [|discriminate].
    cbn [bind]. destruct (catch _ _); [|discriminate]. cbn [bind].
    destruct (handle_subscription sub pfx (S k) r) as [l'|] eqn:E; [|discriminate].
    intros [= <-]. cbn [map fst]. rewrite (IH _ _ E). reflexivity.
  Qed.

  (* topic_levels[-2] exists, a non-numeric level gives qos 0, the callback's exception is
     swallowed *)
  Lemma hsub_ok pfx topics : Forall (two_levels pfx) topics ->
    forall k, exists l, handle_subscription sub pfx k topics = Ok l /\ map fst l = map (app pfx) topics.
  Proof.
    intros F k. enough (exists l, handle_subscription sub pfx k topics = Ok l) as [l E]
      by (exists l; split; [exact E|exact (hsub_topics _ _ _ _ E)]).
    revert k. induction F as [|t r Ht _ IH]; intro k; [eexists; reflexivity|].
    cbn [handle_subscription].
    destruct (get_idx_ok (split slash (pfx ++ t)) sub_qos_index) as [x ->];
      [reflexivity|exact (split_length_delim _ _ Ht)|].
    destruct (IH (S k)) as [l ->]. cbn [bind].
    destruct (parse x); cbn [bind of_option sub_int_caught]; rewrite (catch_all_ok _ _ sub_caught_all);
      eexists; reflexivity.
  Qed.

  Lemma init_topics_spec pfx pers st k :
    exists l, init_topics sub pfx pers st k = Ok l /\
      map fst l = map (app pfx) ([presentation_topic []; internal_topic []] ++ (if pers then restored_topics st else [])).
  Proof.
    unfold init_topics. rewrite init_templates_spec, init_literals_spec.
    destruct (hsub_ok pfx [presentation_topic []; internal_topic []]) with (k := k) as [s1 [-> M1]];
      [repeat constructor; apply (mem_delim_app slash pfx)|]. cbn [bind].
    destruct pers; cbn [negb].
    - destruct (hsub_ok pfx _ (restored_topics_slash pfx st) (k + length s1)) as [s2 [-> M2]]. cbn [bind].
      eexists. split; [reflexivity|]. rewrite !map_app, M1, M2. reflexivity.
    - eexists. split; [reflexivity|]. rewrite app_nil_r. exact M1.
  Qed.

  Lemma presentation_spec pfx st k n c :
    exists st' l, mqtt_handle_presentation sub pfx st k n c = Ok (st', l) /\
      (forall n' c', has_child st n' c' -> has_child st' n' c') /\
      (forall n' c', has_child st' n' c' -> has_child st n' c' \/ child_covered pfx l n' c') /\
      (has_node st n = true -> c <> system_child_id -> has_child st' n c).
  Proof.
    unfold mqtt_handle_presentation, handle_presentation. change pres_skip_child with system_child_id.
    destruct (Z.eqb_spec c system_child_id) as [->|Ne]; cbn [orb].
    - exists (add_sensor st n), []. split; [reflexivity|].
      split; [intros; apply has_child_add_sensor; assumption|].
      split; [intros n' c' H; left; apply (has_child_add_sensor st n n' c'), H|intros _ H; contradiction].
    - destruct (add_child st n c) as [st'|] eqn:A; cbn [negb].
      + pose proof (add_child_spec _ _ _ _ A) as S. rewrite pres_templates_spec.
        destruct (hsub_ok pfx _ (child_spec_topics_slash pfx n c) k) as [l [-> M]]. cbn [bind].
        exists st', l. split; [reflexivity|]. split; [intros; apply S; tauto|].
        split; [|intros; apply S; tauto].
        intros n' c' H. apply S in H as [H|[-> ->]]; [tauto|right].
        apply covered_by. rewrite M. apply incl_refl.
      + exists st, []. split; [reflexivity|]. split; [tauto|]. split; [tauto|].
        intros HN _. apply add_child_none; assumption.
  Qed.

  Lemma step_grows pfx s o : exists s', step sub pfx s o = Ok s' /\ grown pfx s s'.
  Proof.
    destruct o as [n|n c]; cbn [step].
    - eexists. split; [reflexivity|]. split; [auto|]. cbn [ms_net].
      split; intros n' c' H; [|left]; apply (has_child_add_sensor (ms_net s) n n' c'), H.
    - destruct (presentation_spec pfx (ms_net s) (length (ms_subs s)) n c) as [st' [l [-> [P1 [P2 _]]]]].
      eexists. split; [reflexivity|]. cbn [ms_net ms_subs fst snd].
      split; [intros t K; apply subscribed_app; auto|]. split; [exact P1|].
      intros n' c' H. destruct (P2 n' c' H) as [K|K]; [left; exact K|right].
      revert K. apply covered_mono. intros t K. apply subscribed_app. auto.
  Qed.

  Lemma run_ops_grows pfx ops : forall s, exists s', run_ops sub pfx s ops = Ok s' /\ grown pfx s s'.
  Proof.
    induction ops as [|o ops IH]; intro s; cbn [run_ops].
    - exists s. split; [reflexivity|apply grown_refl].
    - destruct (step_grows pfx s o) as [s1 [-> G1]]. cbn [bind].
      destruct (IH s1) as [s2 [-> G2]]. exists s2. split; [reflexivity|exact (grown_trans _ _ _ _ G1 G2)].
  Qed.

  Lemma start_cover pfx pers st0 ops s : start sub pfx pers st0 ops = Ok s ->
    subscribed (ms_subs s) (presentation_topic pfx) /\
    subscribed (ms_subs s) (internal_topic pfx) /\
    (forall n c, has_child st0 n c -> has_child (ms_net s) n c) /\
    (forall n c, has_child (ms_net s) n c ->
       (pers = false /\ has_child st0 n c) \/ child_covered pfx (ms_subs s) n c).
  Proof.
    unfold start. destruct (init_topics_spec pfx pers st0 0) as [l [-> M]]. cbn [bind].
    destruct (run_ops_grows pfx ops (mkM st0 l)) as [s' [-> (E & A & B)]]. intros [= ->].
    cbn [ms_net ms_subs] in *.
    assert (incl (map (app pfx) ([presentation_topic []; internal_topic []] ++
                                 (if pers then restored_topics st0 else []))) (map fst (ms_subs s))) as S.
    { intros t Ht. apply E. unfold subscribed. rewrite M. exact Ht. }
    split; [apply S; simpl; tauto|]. split; [apply S; simpl; tauto|]. split; [exact A|].
    intros n c H. destruct (B n c H) as [K|K]; [|right; exact K].
    destruct pers; [right|left; split; [reflexivity|exact K]].
    apply covered_by. intros t Ht. apply S. rewrite map_app. apply in_or_app. right.
    revert t Ht. apply incl_map, restored_topics_cover, K.
  Qed.
End Sub.
