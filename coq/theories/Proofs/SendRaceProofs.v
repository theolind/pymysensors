(* C16 - proofs.  `search_complete`: a level search over any successor function covers every schedule up to a
   simulation.  With the single-instruction successors it is the model's `explore` (explore_complete).  The safety
   theorem of C16 does NOT go through explore: steps that neither read nor write the heap commute with the other
   thread, so `race_check` (evaluated by vm_compute on the generated programs) searches only the configurations
   in which both threads stand at a heap access, and race_check_safe is search_complete for that search.
   Last the invariant of the job queue; the statements about it are proved in Props/C16.v. *)
From Coq Require Import List NArith Bool Arith Lia.
From PMS Require Import Base.Exn Model.SendRace Gen.SendSteps.
Import ListNotations.

(* the direction of N.eqb_eq / Nat.eqb_eq that hint resolution needs *)
Lemma N_eqb_sound : forall x y, N.eqb x y = true -> x = y.
Proof. intros x y; apply N.eqb_eq. Qed.
Lemma nat_eqb_sound : forall x y, Nat.eqb x y = true -> x = y.
Proof. intros x y; apply Nat.eqb_eq. Qed.

Lemma exn_eqb_sound : forall a b, exn_eqb a b = true -> a = b.
Proof. destruct a, b; simpl; intro H; try discriminate H; reflexivity. Qed.

Lemma meth_eqb_sound : forall a b, meth_eqb a b = true -> a = b.
Proof.
  destruct a, b; simpl; intro H; try discriminate H; try reflexivity;
    apply N.eqb_eq in H; subst; reflexivity.
Qed.

Lemma val_eqb_sound : forall a b, val_eqb a b = true -> a = b.
Proof.
  destruct a, b; simpl; intro H; try discriminate H; try reflexivity; f_equal;
    auto using N_eqb_sound, meth_eqb_sound.
Qed.

Lemma list_eqb_sound {A} (eqb : A -> A -> bool) :
  (forall x y, eqb x y = true -> x = y) -> forall l m, list_eqb eqb l m = true -> l = m.
Proof.
  intros Hs; induction l as [|x l IH]; destruct m as [|y m]; simpl; intro H; try discriminate H.
  - reflexivity.
  - apply andb_true_iff in H as [H1 H2]. f_equal; auto.
Qed.

Lemma opt_eqb_sound {A} (eqb : A -> A -> bool) :
  (forall x y, eqb x y = true -> x = y) -> forall a b, opt_eqb eqb a b = true -> a = b.
Proof.
  intros Hs [x|] [y|]; simpl; intro H; try discriminate H; f_equal; auto.
Qed.

Local Hint Resolve eqb_prop N_eqb_sound nat_eqb_sound exn_eqb_sound val_eqb_sound
  list_eqb_sound opt_eqb_sound : eqb.

Lemma entry_eqb_sound : forall a b, entry_eqb a b = true -> a = b.
Proof.
  intros [[c v] o] [[d w] p]; simpl; intro H.
  apply andb_true_iff in H as [H H3]. apply andb_true_iff in H as [H1 H2].
  repeat f_equal; eauto with eqb.
Qed.
Local Hint Resolve entry_eqb_sound : eqb.

Lemma heap_eqb_sound : forall a b, heap_eqb a b = true -> a = b.
Proof.
  intros [] []; unfold heap_eqb; simpl; intro H.
  repeat (apply andb_true_iff in H as [H ?]). f_equal; eauto with eqb.
Qed.

Lemma thread_eqb_sound : forall a b, thread_eqb a b = true -> a = b.
Proof.
  intros [] []; unfold thread_eqb; simpl; intro H.
  apply andb_true_iff in H as [H H3]. apply andb_true_iff in H as [H1 H2]. f_equal; eauto with eqb.
Qed.

Lemma cfg_eqb_sound : forall a b, cfg_eqb a b = true -> a = b.
Proof.
  intros [] []; unfold cfg_eqb; simpl; intro H.
  apply andb_true_iff in H as [H H3]. apply andb_true_iff in H as [H1 H2].
  f_equal; auto using thread_eqb_sound, heap_eqb_sound.
Qed.

Lemma add_new_incl : forall acc c x, In x (c :: acc) -> In x (add_new acc c).
Proof.
  intros acc c x H; unfold add_new. destruct (existsb (cfg_eqb c) acc) eqn:E; [|exact H].
  destruct H as [<-|H]; [|exact H].
  apply existsb_exists in E as [y [Hy Heq]]. apply cfg_eqb_sound in Heq. subst; exact Hy.
Qed.

Lemma dedup_complete : forall l x, In x l -> In x (dedup l).
Proof.
  enough (forall l acc x, In x acc \/ In x l -> In x (fold_left add_new l acc))
    by (intros l x H'; unfold dedup; auto).
  induction l as [|a l IH]; simpl; intros acc x H.
  - destruct H as [H|[]]; exact H.
  - apply IH. destruct H as [H|[H|H]]; [left; apply add_new_incl; right | left; apply add_new_incl; left | right];
      exact H.
Qed.

Lemma find_label_ge : forall code l base k, find_label code l base = Some k -> base <= k.
Proof.
  induction code as [|s r IH]; simpl; intros l base k H; [discriminate H|].
  destruct (s_ins s); try (apply IH in H; lia).
  destruct (Nat.eqb l l0); [injection H as <-; lia | apply IH in H; lia].
Qed.

Lemma jump_progress : forall prog t l,
  t_pc t < length prog -> remaining prog (jump prog t l) < length prog - t_pc t.
Proof.
  intros prog t l Hlt; unfold jump, goto.
  destruct (find_label (skipn (S (t_pc t)) prog) l (S (t_pc t))) eqn:E.
  - apply find_label_ge in E. unfold remaining; simpl. lia.
  - unfold remaining, die; simpl. lia.
Qed.

Lemma step_thread_progress : forall prog t h,
  enabled prog t = true -> remaining prog (fst (step_thread prog t h)) < remaining prog t.
Proof.
  intros prog t h He. unfold enabled in He. destruct (t_exn t) eqn:Ex; [discriminate He|].
  apply Nat.ltb_lt in He. unfold remaining at 2; rewrite Ex.
  unfold step_thread. destruct (nth_error prog (t_pc t)) as [s|] eqn:En.
  2:{ apply nth_error_None in En; lia. }
  destruct (exec_instr (s_ins s) (t_regs t) h) as [rs h'|l| |e h'].
  - unfold remaining; simpl; lia.
  - simpl; apply jump_progress; exact He.
  - unfold remaining; simpl; lia.
  - destruct (s_hdl s) as [l|]; [destruct (exn_eqb e OSError)|]; simpl;
      try (apply jump_progress; exact He); unfold remaining, die; simpl; lia.
Qed.

(* cstep without the let-pattern *)
Lemma cstep_eq : forall pa pb w c,
  cstep pa pb w c =
  if w then
    if enabled pa (c_a c)
    then Some (mkCfg (fst (step_thread pa (c_a c) (c_h c))) (c_b c) (snd (step_thread pa (c_a c) (c_h c))))
    else None
  else
    if enabled pb (c_b c)
    then Some (mkCfg (c_a c) (fst (step_thread pb (c_b c) (c_h c))) (snd (step_thread pb (c_b c) (c_h c))))
    else None.
Proof.
  intros pa pb w c; unfold cstep.
  destruct w; [destruct (step_thread pa (c_a c) (c_h c)) | destruct (step_thread pb (c_b c) (c_h c))]; reflexivity.
Qed.

Lemma cstep_progress : forall pa pb w c c',
  cstep pa pb w c = Some c' -> measure pa pb c' < measure pa pb c.
Proof.
  intros pa pb w c c' H; rewrite cstep_eq in H; unfold measure.
  destruct w; [destruct (enabled pa (c_a c)) eqn:E | destruct (enabled pb (c_b c)) eqn:E];
    try discriminate H; injection H as <-; simpl;
    pose proof (step_thread_progress _ _ (c_h c) E); lia.
Qed.

Lemma cstep_in_succs : forall pa pb w c c', cstep pa pb w c = Some c' -> In c' (succs pa pb c).
Proof.
  intros pa pb w c c' H; unfold succs; apply in_or_app.
  destruct w; [left | right]; rewrite H; left; reflexivity.
Qed.

Lemma succs_progress : forall pa pb c c', In c' (succs pa pb c) -> measure pa pb c' < measure pa pb c.
Proof.
  intros pa pb c c' H; unfold succs in H. apply in_app_or in H as [H|H];
    [destruct (cstep pa pb true c) eqn:E | destruct (cstep pa pb false c) eqn:E];
    try contradiction H; destruct H as [<-|[]]; eapply cstep_progress; exact E.
Qed.

(* `reach` over any successor function `next`.  It covers every schedule up to a relation R
   between the configurations of the machine and the explored ones, provided R is kept by a
   machine step, either by staying where it is or by moving to a successor. *)
Section Search.
  Variables pa pb : list step.
  Variable next : config -> list config.
  Variable R : config -> config -> Prop.
  Hypothesis next_progress : forall e e', In e' (next e) -> measure pa pb e' < measure pa pb e.
  Hypothesis next_sim : forall w c c' e, R c e -> cstep pa pb w c = Some c' ->
    R c' e \/ exists e', In e' (next e) /\ R c' e'.

  Fixpoint search (n : nat) (S : list config) : list config :=
    match n with
    | O => S
    | Datatypes.S n' => S ++ search n' (dedup (flat_map next S))
    end.

  Lemma search_complete : forall sched n S c e,
    In e S -> R c e -> measure pa pb e <= n ->
    exists e', In e' (search n S) /\ R (run_sched pa pb sched c) e'.
  Proof.
    induction sched as [|w r IH]; intros n S c e Hin HR Hm; simpl.
    - exists e; split; [|exact HR]. destruct n; simpl; [|apply in_or_app; left]; exact Hin.
    - destruct (cstep pa pb w c) as [c'|] eqn:E; [|eapply IH; eassumption].
      destruct (next_sim _ _ _ _ HR E) as [HR'|[e' [Hn HR']]]; [eapply IH; eassumption|].
      pose proof (next_progress _ _ Hn) as P. destruct n as [|n]; [lia|].
      destruct (IH n (dedup (flat_map next S)) c' e') as [e'' [H1 H2]]; [|exact HR'|lia|].
      + apply dedup_complete, in_flat_map. exists e; split; assumption.
      + exists e''; split; [simpl; apply in_or_app; right; exact H1 | exact H2].
  Qed.
End Search.

Lemma reach_search : forall pa pb n S, reach pa pb n S = search (succs pa pb) n S.
Proof. intros pa pb; induction n as [|n IH]; intro S; simpl; [|rewrite IH]; reflexivity. Qed.

Theorem explore_complete : forall pa pb sched c, In (run_sched pa pb sched c) (explore pa pb c).
Proof.
  intros pa pb sched c; unfold explore; rewrite reach_search.
  destruct (search_complete pa pb (succs pa pb) eq (succs_progress pa pb)) with (sched := sched) (c := c) (e := c)
    (n := measure pa pb c) (S := [c]) as [e [H <-]]; auto; [|left; reflexivity].
  intros w x x' e <- E; right; exists x'; split; [eapply cstep_in_succs; exact E | reflexivity].
Qed.

Lemma all_scenarios_complete : forall sc, In sc all_scenarios.
Proof.
  intros [ev o u m]; unfold all_scenarios.
  apply in_flat_map; exists ev; split; [destruct ev; simpl; tauto|].
  apply in_flat_map; exists o; split; [destruct o; simpl; tauto|].
  apply in_flat_map; exists u; split; [destruct u; simpl; tauto|].
  apply in_map; destruct m; simpl; tauto.
Qed.

(* the loads that look into the heap, the calls that look into it or change it *)
Definition pure_load (v : val) (a : attr) : bool :=
  match v, a with
  | VSelfT, A_protocol | VProto, A_transport | VGateway, A_on_conn_lost | VGateway, A_on_conn_made => false
  | _, _ => true
  end.

Definition pure_call (f : val) : bool :=
  match f with VMeth (MWrite _ | MClose _ | MConnLostCb | MUserLost) => false | _ => true end.

Definition pure (i : instr) (rs : list val) : bool :=
  match i with
  | ILoad _ s a => pure_load (get rs s) a
  | IStore _ _ _ => false
  | ICall _ f _ => pure_call (get rs f)
  | _ => true
  end.

Definition reheap (h : heap) (o : outcome) : outcome :=
  match o with ONext rs _ => ONext rs h | OThrow e _ => OThrow e h | _ => o end.

Lemma pure_load_eq : forall v a, pure_load v a = true -> forall h h', load_attr h' v a = load_attr h v a.
Proof. intros v a P h h'; destruct v, a; try discriminate P; reflexivity. Qed.

Lemma pure_call_eq : forall f, pure_call f = true -> forall args, exists r, forall h, call h f args = (h, r).
Proof.
  intros f P args. destruct f as [| | | | | | | | | | | |m|]; try destruct m; try discriminate P;
    try (eexists; reflexivity).
  - destruct args as [|? [|? ?]]; eexists; reflexivity.
  - destruct args; eexists; reflexivity.
  - destruct args; eexists; reflexivity.
  - destruct args as [|? [|? [|? ?]]]; eexists; reflexivity.
Qed.

Lemma pure_exec : forall i rs, pure i rs = true ->
  forall h h', exec_instr i rs h' = reheap h' (exec_instr i rs h).
Proof.
  intros i rs P h h'. destruct i; simpl in *; unfold wr; try discriminate P.
  - rewrite (pure_load_eq _ _ P h h').
    destruct (load_attr h (get rs src) a) as [v|]; [destruct (set_reg rs dst v)|]; reflexivity.
  - destruct (pure_call_eq _ P (map (get rs) args)) as [r C]. rewrite !C.
    destruct r as [v|]; [destruct (set_reg rs dst v)|]; reflexivity.
  - destruct (set_reg rs dst v); reflexivity.
  - destruct (set_reg rs dst (get rs src)); reflexivity.
  - destruct (set_reg rs dst _); reflexivity.
  - destruct (set_reg rs dst _); reflexivity.
  - destruct (Bool.eqb _ sense); reflexivity.
  - reflexivity.
  - reflexivity.
  - reflexivity.
Qed.

Definition local (prog : list step) (t : thread) : bool :=
  match nth_error prog (t_pc t) with Some s => pure (s_ins s) (t_regs t) | None => false end.

Lemma local_step : forall prog t, local prog t = true ->
  forall h h', step_thread prog t h' = (fst (step_thread prog t h), h').
Proof.
  intros prog t; unfold local, step_thread. destruct (nth_error prog (t_pc t)) as [s|]; [|discriminate].
  intros P h h'. rewrite (pure_exec _ _ P h h').
  destruct (exec_instr (s_ins s) (t_regs t) h) as [rs1 h1|l| |e h1]; simpl; try reflexivity.
  destruct (s_hdl s); [destruct (exn_eqb e OSError)|]; reflexivity.
Qed.

(* t can make a local step (the test does not need the length of the program) *)
Definition movable (prog : list step) (t : thread) : bool := no_exn t && local prog t.

Lemma movable_enabled : forall prog t, movable prog t = true -> enabled prog t = true.
Proof.
  intros prog t M. apply andb_true_iff in M as [N L]. unfold enabled, no_exn, local in *.
  destruct (t_exn t); [discriminate N|]. apply Nat.ltb_lt, nth_error_Some.
  destruct (nth_error prog (t_pc t)); [discriminate | discriminate L].
Qed.

(* t runs local steps up to u, where the next step is not local (or there is none) *)
Inductive lrun (prog : list step) : thread -> thread -> Prop :=
| lrun_stop t : movable prog t = false -> lrun prog t t
| lrun_step t h u : movable prog t = true ->
    lrun prog (fst (step_thread prog t h)) u -> lrun prog t u.

Fixpoint norm (prog : list step) (n : nat) (t : thread) (h : heap) : thread :=
  match n with
  | O => t
  | S n' => if movable prog t then norm prog n' (fst (step_thread prog t h)) h else t
  end.

Lemma norm_lrun : forall prog h n t, remaining prog t < n -> lrun prog t (norm prog n t h).
Proof.
  intros prog h; induction n as [|n IH]; intros t Hn; [lia|]. simpl.
  destruct (movable prog t) eqn:E; [|apply lrun_stop; exact E].
  apply (lrun_step _ _ h _ E), IH.
  pose proof (step_thread_progress prog t h (movable_enabled _ _ E)). lia.
Qed.

Lemma lrun_trans : forall prog t u v, lrun prog t u -> lrun prog u v -> lrun prog t v.
Proof. induction 1; intro L; [exact L | eapply lrun_step; eauto]. Qed.

Lemma lrun_remaining : forall prog t u, lrun prog t u -> remaining prog u <= remaining prog t.
Proof.
  induction 1 as [|t h u E _ IH]; [lia|].
  pose proof (step_thread_progress prog t h (movable_enabled _ _ E)). lia.
Qed.

(* a thread that has raised does not move *)
Lemma lrun_no_exn : forall prog t u, lrun prog t u -> no_exn u = true -> no_exn t = true.
Proof. destruct 1 as [|t h u E _]; [auto|]. intros _. now apply andb_true_iff in E. Qed.

(* the step of t on any heap: it is the first of the run, or t is where the run ends *)
Lemma lrun_cases : forall prog t u h, lrun prog t u ->
  u = t \/ exists t', step_thread prog t h = (t', h) /\ lrun prog t' u.
Proof.
  intros prog t u h [t0|t0 h0 u0 E L]; [left; reflexivity | right].
  apply andb_true_iff in E as [_ E]. exists (fst (step_thread prog t0 h0)); split; [apply local_step; exact E | exact L].
Qed.

(* both threads moved to their next heap access *)
Definition cnorm (pa pb : list step) (c : config) : config :=
  mkCfg (norm pa (S (remaining pa (c_a c))) (c_a c) (c_h c))
        (norm pb (S (remaining pb (c_b c))) (c_b c) (c_h c)) (c_h c).

Definition nsuccs (pa pb : list step) (e : config) : list config := map (cnorm pa pb) (succs pa pb e).

Definition lsim (pa pb : list step) (c e : config) : Prop :=
  lrun pa (c_a c) (c_a e) /\ lrun pb (c_b c) (c_b e) /\ c_h e = c_h c.

Lemma nsuccs_progress : forall pa pb e e', In e' (nsuccs pa pb e) -> measure pa pb e' < measure pa pb e.
Proof.
  intros pa pb e e' H. apply in_map_iff in H as [x [<- H]]. apply succs_progress in H.
  unfold measure, cnorm in *; cbn [c_a c_b].
  pose proof (lrun_remaining pa _ _ (norm_lrun pa (c_h x) _ (c_a x) (Nat.lt_succ_diag_r _))).
  pose proof (lrun_remaining pb _ _ (norm_lrun pb (c_h x) _ (c_b x) (Nat.lt_succ_diag_r _))). lia.
Qed.

Lemma lsim_step : forall pa pb w c c' e, lsim pa pb c e -> cstep pa pb w c = Some c' ->
  lsim pa pb c' e \/ exists e', In e' (nsuccs pa pb e) /\ lsim pa pb c' e'.
Proof.
  intros pa pb w c c' e [A [B H]] E. rewrite cstep_eq in E.
  destruct w; [destruct (enabled pa (c_a c)) eqn:En | destruct (enabled pb (c_b c)) eqn:En];
    try discriminate E; injection E as <-.
  - destruct (lrun_cases pa _ _ (c_h c) A) as [Ea|[t' [St A']]].
    + right. eexists; split.
      * apply in_map, (cstep_in_succs _ _ true). rewrite cstep_eq, Ea, H, En. reflexivity.
      * repeat split; cbn [cnorm c_a c_b c_h]; [apply norm_lrun; lia | eapply lrun_trans; [exact B | apply norm_lrun; lia]].
    + left. rewrite St. repeat split; assumption.
  - destruct (lrun_cases pb _ _ (c_h c) B) as [Eb|[t' [St B']]].
    + right. eexists; split.
      * apply in_map, (cstep_in_succs _ _ false). rewrite cstep_eq, Eb, H, En. reflexivity.
      * repeat split; cbn [cnorm c_a c_b c_h]; [eapply lrun_trans; [exact A | apply norm_lrun; lia] | apply norm_lrun; lia].
    + left. rewrite St. repeat split; assumption.
Qed.

Lemma lsim_safe : forall pa pb sc c e, lsim pa pb c e -> safe sc e = true -> safe sc c = true.
Proof.
  intros pa pb sc c e [A [B H]]; unfold safe; rewrite H; intro S.
  repeat (apply andb_true_iff in S as [S ?]).
  rewrite (lrun_no_exn _ _ _ A S), (lrun_no_exn pb _ (c_b e)) by assumption.
  repeat (apply andb_true_iff; split); auto.
Qed.

(* the words of the statements of Props/C16.v: the generated programs, the pre-fix send with the same event code,
   the configuration a schedule ends in, a thread that has returned *)
Definition P_now : progs :=
  mkProgs send_steps send_nregs disconnect_steps disconnect_nregs
          connection_lost_steps connection_lost_nregs connection_made_steps connection_made_nregs.

Definition P_unfixed : progs :=
  mkProgs send_steps_unfixed send_unfixed_nregs disconnect_steps disconnect_nregs
          connection_lost_steps connection_lost_nregs connection_made_steps connection_made_nregs.

Definition final (P : progs) (sc : scenario) (sched : list bool) : config :=
  run_sched (p_send P) (event_prog P (sc_ev sc)) sched (init_cfg P sc).

Definition returned (prog : list step) (t : thread) : Prop :=
  t_exn t = None /\ length prog <= t_pc t.

(* the check of one scenario: every normal form reachable from the start is safe *)
Definition race_check (P : progs) (sc : scenario) : bool :=
  let pa := p_send P in
  let pb := event_prog P (sc_ev sc) in
  let e := cnorm pa pb (init_cfg P sc) in
  forallb (safe sc) (search (nsuccs pa pb) (measure pa pb e) [e]).

Lemma race_check_safe : forall P, forallb (race_check P) all_scenarios = true ->
  forall sc sched, safe sc (final P sc sched) = true.
Proof.
  intros P H sc sched. rewrite forallb_forall in H. specialize (H sc (all_scenarios_complete sc)).
  unfold race_check in H; cbv zeta in H. rewrite forallb_forall in H.
  set (pa := p_send P) in *. set (pb := event_prog P (sc_ev sc)) in *. set (c := init_cfg P sc) in *.
  destruct (search_complete pa pb (nsuccs pa pb) (lsim pa pb) (nsuccs_progress pa pb) (lsim_step pa pb)
              sched (measure pa pb (cnorm pa pb c)) [cnorm pa pb c] c (cnorm pa pb c))
    as [e [He L]]; [left; reflexivity | | lia | exact (lsim_safe _ _ _ _ _ L (H e He))].
  repeat split; apply norm_lrun; lia.
Qed.

(* the finite obligation, on the step lists generated from transport.py *)
Lemma race_check_now : forallb (race_check P_now) all_scenarios = true.
Proof. vm_compute. reflexivity. Qed.

Lemma no_exn_none : forall t, no_exn t = true -> t_exn t = None.
Proof. intros t; unfold no_exn; destruct (t_exn t); [discriminate | reflexivity]. Qed.

(* what `safe` says, conjunct by conjunct *)
Lemma safe_spec : forall sc c, safe sc c = true ->
  t_exn (c_a c) = None
  /\ length (written (h_log (c_h c))) <= 1
  /\ (forall cid a, In (cid, a, true) (h_log (c_h c)) -> a = VMsgBytes)
  /\ (sc_msg sc = false -> h_log (c_h c) = [])
  /\ t_exn (c_b c) = None.
Proof.
  intros sc c H. unfold safe in H. apply andb_true_iff in H as [H Hb]. apply andb_true_iff in H as [H Hm].
  apply andb_true_iff in H as [H Hl]. apply andb_true_iff in H as [Ha Hw].
  repeat apply conj; try (apply no_exn_none; assumption).
  - apply Nat.leb_le, Hw.
  - intros cid a Hin. rewrite forallb_forall in Hl. apply val_eqb_sound, (Hl _ Hin).
  - intro E. rewrite E in Hm. destruct (h_log (c_h c)); [reflexivity | discriminate Hm].
Qed.

Lemma disabled_remaining : forall prog t, enabled prog t = false -> remaining prog t = 0.
Proof.
  intros prog t H; unfold enabled in H; unfold remaining. destruct (t_exn t); [reflexivity|].
  apply Nat.ltb_ge in H. lia.
Qed.

(* a scheduled step of the sender uses up one of the steps it has left: it terminates *)
Lemma sender_budget : forall pa pb sched c,
  remaining pa (c_a (run_sched pa pb sched c)) <= remaining pa (c_a c) - count_occ bool_dec sched true.
Proof.
  intros pa pb; induction sched as [|w r IH]; intros c; simpl; [lia|].
  rewrite cstep_eq. destruct w; simpl.
  - destruct (enabled pa (c_a c)) eqn:E.
    + pose proof (step_thread_progress pa (c_a c) (c_h c) E) as P. etransitivity; [apply IH|]. simpl; lia.
    + specialize (IH c). apply disabled_remaining in E. lia.
  - destruct (enabled pb (c_b c)); [apply (IH (mkCfg _ _ _)) | apply IH].
Qed.

(* a schedule on which the pre-fix send raises: the guard passes (6 sender steps), the event code runs to its
   end, the sender goes on.  C16 uses it with a lost connection; with a user disconnect self.protocol is None
   at the second look *)
Definition unfixed_witness_sched : list bool := repeat true 6 ++ repeat false 40 ++ repeat true 40.

Theorem send_race_unfixed_refuted_disconnect :
  exists sched, t_exn (c_a (final P_unfixed (mkSc EvDisconnect true false true) sched)) = Some AttributeError.
Proof. exists unfixed_witness_sched. vm_compute. reflexivity. Qed.

Section QueueProofs.
  Variable job : Type.
  Notation qst := (qstate job).

  Lemma nth_upd_same : forall (A : Type) (l : list A) i x d, i < length l -> nth i (upd l i x) d = x.
  Proof.
    induction l as [|y l IH]; simpl; intros i x d H; [lia|]. destruct i; simpl; [reflexivity|].
    apply IH; lia.
  Qed.

  Lemma nth_upd_other : forall (A : Type) (l : list A) i j x d, i <> j -> nth j (upd l i x) d = nth j l d.
  Proof.
    induction l as [|y l IH]; simpl; intros i j x d H; [reflexivity|].
    destruct i, j; simpl; try reflexivity; try lia. apply IH; lia.
  Qed.

  Lemma length_upd : forall (A : Type) (l : list A) i x, length (upd l i x) = length l.
  Proof.
    induction l as [|y l IH]; simpl; intros i x; [reflexivity|]. destruct i; simpl; [reflexivity|].
    rewrite IH; reflexivity.
  Qed.

  Lemma proj_app : forall p (l m : list (nat * job)), proj p (l ++ m) = proj p l ++ proj p m.
  Proof. intros p l m; unfold proj. rewrite filter_app, map_app. reflexivity. Qed.

  Record qinv (lists : list (list job)) (s : qst) : Prop := mkQinv {
    qi_err : q_err s = false;
    qi_fifo : q_appended s = q_sent s ++ q_queue s;
    (* one pump at most, and one that has seen the deque non-empty still finds it so *)
    qi_chk : match q_checked s with
             | [] | [false] => True
             | [true] => q_queue s <> []
             | _ => False
             end;
    qi_len : length (q_pending s) = length lists;
    qi_proj : forall p, proj p (q_appended s) ++ nth p (q_pending s) [] = nth p lists [];
    qi_tag : forall x, In x (q_appended s) -> fst x < length lists
  }.

  Lemma qinv_init : forall lists pumps, pumps <= 1 -> qinv lists (qinit lists pumps).
  Proof.
    intros lists [|[|pumps]] Hp; [| |lia]; constructor; simpl; try reflexivity; try exact I; intros x [].
  Qed.

  Lemma qinv_step : forall lists s e, qinv lists s -> qinv lists (qstep s e).
  Proof.
    intros lists s e I. destruct I as [Ierr Ififo Ichk Ilen Iproj Itag]. destruct e as [p|i]; simpl.
    - destruct (nth_error (q_pending s) p) as [[|j r]|] eqn:En;
        try (constructor; assumption).
      assert (Hp : p < length (q_pending s)) by (apply nth_error_Some; rewrite En; discriminate).
      assert (Hn : nth p (q_pending s) [] = j :: r) by (apply nth_error_nth; exact En).
      constructor; simpl; try assumption.
      + rewrite Ififo, app_assoc; reflexivity.
      + destruct (q_checked s) as [|[|] [|? ?]]; try exact Ichk. destruct (q_queue s); discriminate.
      + rewrite length_upd; exact Ilen.
      + intro p'. rewrite proj_app. destruct (Nat.eq_dec p p') as [<-|Hne].
        * rewrite nth_upd_same by exact Hp. unfold proj at 2; simpl. rewrite Nat.eqb_refl; simpl.
          rewrite <- app_assoc; simpl. rewrite <- Hn. apply Iproj.
        * rewrite nth_upd_other by exact Hne. unfold proj at 2; simpl.
          destruct (Nat.eqb p p') eqn:E; [apply Nat.eqb_eq in E; contradiction|]. simpl.
          rewrite app_nil_r. apply Iproj.
      + intros x Hx. apply in_app_or in Hx as [Hx|[<-|[]]]; [apply Itag; exact Hx|]. simpl. lia.
    - destruct (q_checked s) as [|b [|? ?]] eqn:Ec; [| |destruct b; contradiction];
        destruct i as [|[|i]]; simpl; try (constructor; rewrite ?Ec; assumption).
      destruct b; destruct (q_queue s) as [|x r] eqn:Eq.
      + contradiction.
      + (* popleft *)
        constructor; simpl; try assumption; [rewrite Ififo, <- app_assoc; reflexivity | exact I].
      + (* truth test, nothing queued *)
        constructor; rewrite ?Ec, ?Eq; assumption.
      + (* truth test *)
        constructor; simpl; try assumption. discriminate.
  Qed.

  Lemma qinv_run : forall lists evs s, qinv lists s -> qinv lists (qrun evs s).
  Proof.
    intros lists; induction evs as [|e r IH]; intros s I; simpl; [exact I|].
    apply IH. apply qinv_step; exact I.
  Qed.
End QueueProofs.
