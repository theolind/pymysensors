(* C05: one dispatcher call against the reply table (reply_table, from the walk over the handlers
   in ReplyInv.v), and the controller call set_child_value in closed form. *)
From Coq Require Import List NArith ZArith Bool String Lia.
From PMS Require Import Base.PyStr Base.PyInt Base.Exn Model.Codec Model.Rules Model.TableTypes
  Gen.Tables Model.Validate Model.Hex Model.Ota Model.Oracles Model.Gateway Spec.SerialApi Spec.ReplyTable
  Proofs.PyStrFacts Proofs.PyIntFacts Proofs.CodecProofs Proofs.ValidateProofs Proofs.GwLemmas Proofs.GwInv
  Proofs.ReplyBase Proofs.ReplyInv.
Import ListNotations.
Open Scope string_scope.
Open Scope list_scope.
Open Scope Z_scope.

Section Reply.
  Variable orc : oracles.
  Variable clock : Z.
  Variable v : ver.

  Notation vw g := (view_of clock g).
  Notation wh g := (withheld (vsleep g)).

  Definition accepted (g : gw) (l : pstr) (m : msg) : Prop :=
    decode l = Some m /\ gvalidate orc g m = true.

  Theorem reply_table g l m g' r : cfgv v g -> Inv orc g -> accepted g l m ->
    wakes_up v (vw g) m = false ->
    logic orc clock g l = Ok (g', r) ->
    let P := prescribed v (vw g) m in
    exists ns,
      g_cf g' = g_cf g /\
      (if cf_async (g_cf g)
       then sends (g_log g') = sends (g_log g) ++ ns /\ g_jobs g' = g_jobs g
       else sends (g_log g') = sends (g_log g) /\ g_jobs g' = g_jobs g ++ map JSend ns) /\
      ns ++ olist r = emitted_part (vw_sleeping (vw g)) P /\
      (forall k, queue_of g' k = queue_of g k ++ withheld_part (vw_sleeping (vw g)) k P).
  Proof.
    intros C I [D V] WU L. unfold gvalidate in V. rewrite (cfgv_tab v g C) in V.
    destruct (logic_hpost orc clock v g l m g' r C I D V L) as (g1 & rep & routed & HP & I1 & C1 & RO & ->).
    destruct (proj2 (HP g1 rep eq_refl) WU) as (N & HN & EN).
    cbn zeta. cbn [vw_sleeping view_of]. rewrite <- EN.
    (* what is not returned to the caller is in the effect *)
    assert (NOREP : forall g2 M, heff g g2 M ->
              exists ns, g_cf g2 = g_cf g /\ outs g g2 ns /\ ns ++ [] = emitted_part (vsleep g) M /\
                         forall k, queue_of g2 k = queue_of g k ++ withheld_part (vsleep g) k M).
    { intros g2 M (A & _ & B & Q). exists (emitted_part (vsleep g) M). rewrite app_nil_r. auto. }
    destruct rep as [x|]; cbn [route_opt olist_np] in *;
      [|inversion RO; subst g' routed; rewrite app_nil_r; exact (NOREP _ _ HN)].
    rewrite (route_closed v g1 x (cfgv_ext v g g1 C1 C)) in RO.
    destruct (m_type x =? 0); [inversion RO; subst g' routed; rewrite app_nil_r; exact (NOREP _ _ HN)|].
    pose proof HN as (_ & S1 & O1 & Q1).
    assert (WE : wh g1 x = wh g x) by (apply withheld_ext; exact S1).
    destruct (wh g1 x) eqn:W; inversion RO; subst g' routed.
    - (* withheld: one more effect *)
      exact (NOREP _ _ (heff_trans g g1 _ N [x] HN (heff_enqueue orc g1 x I1 W))).
    - (* returned: the last of the emitted commands *)
      exists (emitted_part (vsleep g) N). split; [exact C1|]. split; [exact O1|]. split.
      + rewrite emitted_app. unfold emitted_part at 3. cbn [filter map]. rewrite <- WE. reflexivity.
      + intro k. rewrite Q1, withheld_part_app. unfold withheld_part at 3. cbn [filter map]. rewrite <- WE.
        cbn [andb map]. rewrite app_nil_r. reflexivity.
  Qed.

  (* the verdict of Gateway.is_sensor as the statements of C05 write it (GwLemmas.registered) *)
  Definition guard_ok (g : gw) (sid : Z) (cid : option Z) : bool :=
    zhas sid (g_sensors g) && match cid with None => true | Some c => vw_child (vw g) sid c end.

  (* what an unknown node / child costs: a presentation request, to a valid node id only *)
  Definition unknown_req (sid : Z) : list msg := if node_id_ok sid then unknown_reply v sid else [].

  Lemma guard_registered g sid cid : guard_ok g sid cid = registered g sid cid.
  Proof. unfold guard_ok. rewrite (registered_view clock), known_view. destruct cid; [reflexivity|apply andb_true_r]. Qed.

  Lemma heff_ask_any g sid : cfgv v g -> Inv orc g -> heff g (ask g sid) (unknown_req sid).
  Proof.
    intros C I. pose proof (heff_ask orc v g sid C I) as H. unfold unknown_req, unknown_reply.
    destruct (node_id_ok sid); [exact H|destruct (v_ge20 v); exact H].
  Qed.

  (* the controller call Gateway.set_child_value in closed form *)
  Definition set_child_commands (g : gw) (sid cid : Z) (vt : vtarg) (x : pyval) (mt a : option Z) : list msg :=
    if guard_ok g sid (Some cid) then
      if vsleep g sid then []                       (* stored as desired state, sent at wake-up (C08) *)
      else match vt_int vt with
           | Some vti => [mkMsg sid cid (ov mt 1) (ov a 0) vti (py_str x)]
           | None => []
           end
    else unknown_req sid.

  Lemma set_child_value_eff g sid cid vt x mt a g' : cfgv v g -> Inv orc g ->
    set_child_value orc g sid cid vt x mt a = Ok g' ->
    heff g g' (set_child_commands g sid cid vt x mt a).
  Proof.
    intros C I. unfold set_child_value, set_child_commands. rewrite (is_sensor_closed g _ _ (cfgv_facts v g C)), guard_registered.
    destruct (registered g sid (Some cid)) eqn:B; cbn [bind negb];
      [|intro H; inversion H; subst g'; apply heff_ask_any; assumption].
    destruct (registered_get g _ _ B) as (nd & G & _). rewrite G.
    pose proof (get_node_ok orc g _ _ I G) as [K _]. simpl in K.
    unfold vsleep. rewrite G. destruct (sleeping nd) eqn:SL.
    - destruct (create_set_message orc g (n_id nd) cid vt x None None) as [m0|e]; cbn [bind]; [|discriminate].
      destruct (zassoc cid (n_new nd)) as [dv|] eqn:D; [|discriminate].
      destruct (validate_child_state orc nd cid vt x); cbn [bind]; [|discriminate].
      destruct (vt_int vt) as [vti|]; [|discriminate].
      intro H. inversion H; subst g'. apply (heff_put_node g nd); [simpl; rewrite K; exact G|reflexivity|].
      apply (sleeping_slot_set nd cid dv). exact D.
    - destruct (create_set_message orc g (n_id nd) cid vt x mt a) as [m0|e] eqn:CM; cbn [bind]; [|discriminate].
      intro H. inversion H; subst g'.
      destruct (create_set_message_ok _ _ _ _ _ _ _ _ _ CM) as (vti & -> & -> & _).
      rewrite (cfgv_tab v g C), k_set, K.
      apply heff_add_job. unfold withheld, vsleep. cbn [m_node]. rewrite G, SL. apply andb_false_r.
  Qed.
End Reply.
