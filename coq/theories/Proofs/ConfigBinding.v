(* C18 - facts about Python call binding as modelled in Model/Config.v: a keyword parameter
   left out of a call binds exactly like that keyword given with the parameter's default
   (bind_args_default), and a constructor call depends on its arguments only through the
   binding against the __init__ of the first class of the MRO (construct_top). *)
From Coq Require Import List NArith ZArith Bool String.
From PMS Require Import Base.PyStr Base.Exn Proofs.PyStrFacts
  Model.ConfigSyntax Model.ConfigVersion Model.Config.
Import ListNotations.
Open Scope list_scope.

Lemma assoc_app {A} k (l1 l2 : list (pstr * A)) :
  assoc k (l1 ++ l2) = match assoc k l1 with Some a => Some a | None => assoc k l2 end.
Proof. induction l1 as [|[k' a] l1 IH]; simpl; [reflexivity|]. destruct (pstr_eqb k k'); auto. Qed.

Lemma has_key_assoc {A} k (l : list (pstr * A)) :
  has_key k l = match assoc k l with Some _ => true | None => false end.
Proof. induction l as [|[k' a] l IH]; simpl; [reflexivity|]. destruct (pstr_eqb k k'); auto. Qed.

(* bind_args = fill_pos, then fill_kw (keywords to parameters or **kwargs), then fill_defaults (parameter
   order, value or default).  With (k, d) among the keywords, fill_kw ends with k bound to d and nothing else
   changed (plus_default); fill_defaults then reads d for k either way. *)
Section Binding.
Variable sg : sig.
Variable k : pstr.
Variable d : val.

(* v1 is v2 with k bound to d *)
Definition plus_default (v1 v2 : list (pstr * val)) : Prop :=
  assoc k v1 = Some d /\ assoc k v2 = None /\ forall n, n <> k -> assoc n v1 = assoc n v2.

(* two results of fill_kw: both raise the same, or both return, related by R, with the same **kwargs *)
Definition same_binding {A B} (R : A -> A -> Prop) (r1 r2 : res (A * B)) : Prop :=
  match r1, r2 with
  | Ok (a1, b1), Ok (a2, b2) => R a1 a2 /\ b1 = b2
  | Raise e1, Raise e2 => e1 = e2
  | _, _ => False
  end.

Lemma plus_default_snoc v1 v2 n v : n <> k -> plus_default v1 v2 -> plus_default (v1 ++ [(n, v)]) (v2 ++ [(n, v)]).
Proof.
  intros N (H1 & H2 & H3). unfold plus_default. rewrite !assoc_app, H1, H2. simpl.
  destruct (pstr_eqb k n) eqn:E; [apply pstr_eqb_eq in E; congruence|].
  split; [reflexivity|]. split; [reflexivity|]. intros m M. rewrite !assoc_app, (H3 m M). reflexivity.
Qed.

Lemma fill_kw_plus_default kws : forall v1 v2 ds, plus_default v1 v2 -> has_key k kws = false ->
  same_binding plus_default (fill_kw sg kws v1 ds) (fill_kw sg kws v2 ds).
Proof.
  induction kws as [|[n v] kws IH]; intros v1 v2 ds P K; simpl; [auto|].
  simpl in K. apply orb_false_elim in K as [Kn K].
  assert (N : n <> k) by (intros ->; rewrite pstr_eqb_refl in Kn; discriminate).
  rewrite (has_key_assoc n v1), (has_key_assoc n v2), (proj2 (proj2 P) n N).
  destruct (is_param (s_params sg) n).
  - destruct (assoc n v2); [exact eq_refl|]. apply IH; [apply plus_default_snoc; assumption|exact K].
  - destruct (s_dstar sg); [|exact eq_refl]. destruct (has_key n ds); [exact eq_refl|]. apply IH; assumption.
Qed.

Lemma fill_kw_default kws1 kws2 : forall vars ds,
  is_param (s_params sg) k = true -> has_key k vars = false ->
  has_key k kws1 = false -> has_key k kws2 = false ->
  same_binding plus_default (fill_kw sg (kws1 ++ (k, d) :: kws2) vars ds) (fill_kw sg (kws1 ++ kws2) vars ds).
Proof.
  induction kws1 as [|[n v] kws1 IH]; intros vars ds Pk Kv K1 K2; simpl.
  - rewrite Pk, Kv. apply fill_kw_plus_default; [|exact K2].
    rewrite has_key_assoc in Kv. destruct (assoc k vars) eqn:E; [discriminate|].
    unfold plus_default. rewrite assoc_app, E. simpl. rewrite pstr_eqb_refl.
    split; [exact eq_refl|]. split; [exact eq_refl|]. intros m M. rewrite assoc_app. simpl.
    destruct (pstr_eqb m k) eqn:X; [apply pstr_eqb_eq in X; congruence|]. destruct (assoc m vars); reflexivity.
  - simpl in K1. apply orb_false_elim in K1 as [Kn K1].
    assert (Kv' : has_key k (vars ++ [(n, v)]) = false).
    { rewrite !has_key_assoc, assoc_app in *. destruct (assoc k vars); [discriminate|]. simpl. rewrite Kn. reflexivity. }
    destruct (is_param (s_params sg) n).
    + destruct (has_key n vars); [exact eq_refl|]. apply IH; assumption.
    + destruct (s_dstar sg); [|exact eq_refl]. destruct (has_key n ds); [exact eq_refl|]. apply IH; assumption.
Qed.

Lemma fill_defaults_plus_default ps v1 v2 : plus_default v1 v2 ->
  (forall p, In p ps -> p_name p = k -> p_default p = Some d) ->
  fill_defaults ps v1 = fill_defaults ps v2.
Proof.
  intros (H1 & H2 & H3) D. induction ps as [|p ps IH]; simpl; [reflexivity|].
  rewrite IH by (intros q Hq; apply D; right; exact Hq).
  destruct (fill_defaults ps v2); [|reflexivity]. simpl.
  destruct (pstr_eqb (p_name p) k) eqn:E.
  - apply pstr_eqb_eq in E. rewrite E, H1, H2, (D p (or_introl eq_refl) E). reflexivity.
  - rewrite H3; [reflexivity|]. intros X. rewrite X, pstr_eqb_refl in E. discriminate.
Qed.

Theorem bind_args_default pos kws1 kws2 :
  is_param (s_params sg) k = true ->
  (forall p, In p (s_params sg) -> p_name p = k -> p_default p = Some d) ->
  has_key k (fst (fill_pos (s_params sg) pos [])) = false ->
  has_key k kws1 = false -> has_key k kws2 = false ->
  bind_args sg pos (kws1 ++ (k, d) :: kws2) = bind_args sg pos (kws1 ++ kws2).
Proof.
  intros Pk D Kp K1 K2. unfold bind_args. destruct (fill_pos (s_params sg) pos []) as [vars0 left]. simpl in Kp.
  destruct (match s_star sg with Some _ => _ | None => _ end) as [star|]; [|reflexivity]. simpl.
  pose proof (fill_kw_default kws1 kws2 vars0 [] Pk Kp K1 K2) as S. unfold same_binding in S.
  destruct (fill_kw sg (kws1 ++ (k, d) :: kws2) vars0 []) as [[a1 b1]|e1],
           (fill_kw sg (kws1 ++ kws2) vars0 []) as [[a2 b2]|e2]; try contradiction; [|congruence].
  destruct S as [P ->]. simpl. rewrite (fill_defaults_plus_default _ _ _ P D). reflexivity.
Qed.
End Binding.

Lemma has_key_In {A} k (l : list (pstr * A)) : has_key k l = true <-> In k (map fst l).
Proof.
  induction l as [|[k' a] l IH]; simpl; [split; [discriminate|contradiction]|].
  rewrite orb_true_iff, IH, pstr_eqb_eq. intuition.
Qed.

Lemma has_key_notin {A} k (l : list (pstr * A)) : ~ In k (map fst l) -> has_key k l = false.
Proof. intro N. destruct (has_key k l) eqn:E; [|reflexivity]. apply has_key_In in E. contradiction. Qed.

Fixpoint distinct (l : list pstr) : bool :=
  match l with [] => true | x :: r => negb (mem_pstr x r) && distinct r end.

Lemma distinct_NoDup l : distinct l = true -> NoDup l.
Proof.
  induction l as [|x l IH]; simpl; intro H; constructor; apply andb_prop in H as [Hx Hl]; [|exact (IH Hl)].
  intro Hin. apply negb_true_iff in Hx. clear -Hin Hx.
  induction l as [|y l IH]; [contradiction|]. simpl in Hx. apply orb_false_elim in Hx as [Hy Hx].
  destruct Hin as [->|Hin]; [rewrite pstr_eqb_refl in Hy; discriminate|exact (IH Hx Hin)].
Qed.

Section Top.
Variable orc : avop -> pstr -> pstr -> option bool.
Variable cont : pstr -> bool.
Variable cs : list cdef.

(* the signature that binds the arguments of the call: the __init__ of the first class of the MRO *)
Definition top_sig (cls : pstr) : option sig :=
  match find_class cs cls with
  | Some cd =>
      match c_mro cd with
      | n :: _ => match find_class cs n with Some cd' => option_map fst (c_init cd') | None => None end
      | [] => None
      end
  | None => None
  end.

Lemma construct_top cls sg pos kws kws' :
  top_sig cls = Some sg -> bind_args sg pos kws = bind_args sg pos kws' ->
  construct orc cont cs cls pos kws = construct orc cont cs cls pos kws'.
Proof.
  unfold top_sig, construct. destruct (find_class cs cls) as [cd|]; [|discriminate].
  destruct (c_mro cd) as [|n rest]; [discriminate|]. destruct (find_class cs n) as [cd'|] eqn:F; [|discriminate].
  destruct (c_init cd') as [[sg' body]|] eqn:I; [|discriminate]. intros [= ->] B.
  (* one unfolding of the interpreter, on a fuel that is a variable (fuel0 = S 399) *)
  unfold fuel0. generalize 399%nat. intro f. cbn [run_init]. rewrite F, I, B. reflexivity.
Qed.
End Top.
