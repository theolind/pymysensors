(* Lemmas for C09 about the request handlers of Model/OtaServe.v: requests
   never touch the firmware dict, answers are a function of the firmware dict
   and the request, scheduled nodes are answered. *)
From Coq Require Import List NArith ZArith Bool Lia ZifyBool.
From PMS Require Import Base.PyStr Base.PyInt Base.Exn Model.Hex Model.Ota Model.IntelHex Model.OtaServe
     Spec.OtaSpec Proofs.HexProofs Proofs.OtaProofs.
Import ListNotations.
Open Scope Z_scope.

Lemma ns_get_del : forall m n s, ns_get m (ns_del n s) = if m =? n then None else ns_get m s.
Proof.
  intros m n s. induction s as [|[j k] r IH]; [destruct (m =? n); reflexivity|].
  cbn [ns_del]. destruct (n =? j) eqn:E; cbn [ns_get]; rewrite IH.
  - destruct (m =? n) eqn:F; [reflexivity|]. destruct (m =? j) eqn:G; [lia|reflexivity].
  - destruct (m =? j) eqn:G; [|reflexivity]. destruct (m =? n) eqn:F; [lia|reflexivity].
Qed.

Lemma ns_get_set : forall m n k s, ns_get m (ns_set n k s) = if m =? n then Some k else ns_get m s.
Proof.
  intros m n k s. unfold ns_set. cbn [ns_get]. rewrite ns_get_del. destruct (m =? n); reflexivity.
Qed.

Lemma key_eqb_eq : forall a b, key_eqb a b = true <-> a = b.
Proof.
  intros [a1 a2] [b1 b2]. unfold key_eqb. cbn [fst snd]. split.
  - intros H. apply andb_true_iff in H. destruct H as [H1 H2].
    apply Z.eqb_eq in H1, H2. subst. reflexivity.
  - intros H. inversion H. subst. rewrite !Z.eqb_refl. reflexivity.
Qed.

Lemma fw_get_set : forall k' k f d,
  fw_get k' (fw_set k f d) = if key_eqb k' k then Some f else fw_get k' d.
Proof.
  intros k' k f d. induction d as [|[j g] r IH]; [reflexivity|].
  cbn [fw_set]. destruct (key_eqb k j) eqn:E; cbn [fw_get].
  - apply key_eqb_eq in E. subst j. destruct (key_eqb k' k); reflexivity.
  - rewrite IH. destruct (key_eqb k' k) eqn:G; [|reflexivity].
    apply key_eqb_eq in G. subst k'. rewrite E. reflexivity.
Qed.

(* _get_fw only moves the node between the two stores it is given: the result
   as a key and two lookups *)
Lemma get_fw_stores_spec : forall n a b k a' b', get_fw_stores n a b = (k, a', b') ->
  k = match ns_get n a with Some x => Some x | None => ns_get n b end /\
  (forall m, ns_get m a' = if m =? n then None else ns_get m a) /\
  (forall m, ns_get m b' = if m =? n then k else ns_get m b).
Proof.
  intros n a b k a' b'. unfold get_fw_stores.
  assert (U : forall s m, ns_get n s = None -> ns_get m s = if m =? n then None else ns_get m s).
  { intros s m H. destruct (m =? n) eqn:E; [|reflexivity]. apply Z.eqb_eq in E. subst m. exact H. }
  destruct (ns_get n a) as [x|] eqn:Ea; [|destruct (ns_get n b) as [x|] eqn:Eb];
    intros H; inversion H; subst k a' b'; (split; [reflexivity|split]); intros m.
  - apply ns_get_del.
  - apply ns_get_set.
  - apply U, Ea.
  - apply ns_get_set.
  - apply U, Ea.
  - apply U, Eb.
Qed.

Lemma get_fw_stores_found : forall n a b x a' b', get_fw_stores n a b = (Some x, a', b') ->
  ns_get n a = Some x \/ ns_get n b = Some x.
Proof.
  intros n a b x a' b' E. destruct (get_fw_stores_spec _ _ _ _ _ _ E) as (Hk & _ & _).
  destruct (ns_get n a); [left|right]; symmetry; exact Hk.
Qed.

Lemma fw_hex_to_int_3 : forall p ws, fw_hex_to_int p 3 = Ok ws ->
  exists t v i, ws = [t; v; i] /\ word_ok t = true /\ word_ok v = true /\ word_ok i = true.
Proof.
  intros p ws H. destruct (fw_int_hex_roundtrip p 3 ws H) as (_ & L & W).
  destruct ws as [|t [|v [|i [|x r]]]]; try discriminate L.
  exists t, v, i. rewrite words_ok3 in W. split; [reflexivity|]. lia.
Qed.

Lemma request_caught_all : forall p n e, fw_hex_to_int p n = Raise e -> request_caught e = true.
Proof.
  intros p n e H. destruct (fw_hex_to_int_errors p n e H) as [->|[->| ->]]; reflexivity.
Qed.

(* a request that does not parse changes nothing; any other moves the node
   between the stores and is answered by block_answer if the node was found:
   a function of the firmware dict and the request payload only *)
Lemma respond_fw_spec : forall st n p,
  (respond_fw st n p = (st, Ok None) /\ block_answer (o_fw st) p = Ok None) \/
  exists k uns sta, get_fw_stores n (o_uns st) (o_sta st) = (k, uns, sta) /\
    respond_fw st n p = (mkOta (o_fw st) (o_req st) uns sta,
                         match k with Some _ => block_answer (o_fw st) p | None => Ok None end).
Proof.
  intros st n p. unfold respond_fw, block_answer.
  destruct (fw_hex_to_int p 3) as [ws|e] eqn:E.
  - right. destruct (fw_hex_to_int_3 p ws E) as (t & v & i & -> & _).
    destruct (get_fw_stores n (o_uns st) (o_sta st)) as [[k uns] sta].
    exists k, uns, sta. split; [reflexivity|].
    destruct k; [destruct (fw_get (t, v) (o_fw st))|]; reflexivity.
  - left. rewrite (request_caught_all p 3 e E). split; reflexivity.
Qed.

Lemma respond_fw_keeps_fw : forall st n p, o_fw (fst (respond_fw st n p)) = o_fw st.
Proof.
  intros st n p. destruct (respond_fw_spec st n p) as [[-> _]|(k & uns & sta & _ & ->)]; reflexivity.
Qed.

Lemma respond_fw_pure : forall st n p,
  snd (respond_fw st n p) = Ok None \/ snd (respond_fw st n p) = block_answer (o_fw st) p.
Proof.
  intros st n p. destruct (respond_fw_spec st n p) as [[-> _]|(k & uns & sta & _ & ->)].
  - left. reflexivity.
  - destruct k; [right|left]; reflexivity.
Qed.

Lemma block_answer_no_raise : forall d p e, block_answer d p <> Raise e.
Proof.
  intros d p e. unfold block_answer.
  destruct (fw_hex_to_int p 3) as [ws|e'] eqn:E; [|discriminate].
  destruct (fw_hex_to_int_3 p ws E) as (t & v & i & -> & Ht & Hv & Hi).
  destruct (fw_get (t, v) d) as [fw|]; [|discriminate].
  rewrite (fw_response_payload_ok _ _ _ _ Ht Hv Hi). discriminate.
Qed.

Lemma respond_fw_active : forall st n p m, active (fst (respond_fw st n p)) m = active st m.
Proof.
  intros st n p m. destruct (respond_fw_spec st n p) as [[-> _]|(k & uns & sta & E & ->)]; [reflexivity|].
  destruct (get_fw_stores_spec _ _ _ _ _ _ E) as (Hk & Ha & Hb).
  unfold active. cbn [fst o_uns o_sta]. rewrite Ha, Hb.
  destruct (m =? n) eqn:Em; [|reflexivity]. apply Z.eqb_eq in Em. subst m k.
  destruct (ns_get n (o_uns st)); reflexivity.
Qed.

(* a node that is past its config request gets block_answer, always *)
Lemma respond_fw_served : forall st n p, active st n = true ->
  snd (respond_fw st n p) = block_answer (o_fw st) p.
Proof.
  intros st n p A. destruct (respond_fw_spec st n p) as [[-> B]|(k & uns & sta & E & ->)]; cbn [snd].
  - symmetry. exact B.
  - destruct (get_fw_stores_spec _ _ _ _ _ _ E) as (Hk & _ & _). unfold active in A. subst k.
    destruct (ns_get n (o_uns st)); [reflexivity|].
    destruct (ns_get n (o_sta st)); [reflexivity|discriminate A].
Qed.

(* the answer to the request a node sends for block i of a firmware that is loaded *)
Lemma block_answer_req : forall d t v i fw,
  word_ok t = true -> word_ok v = true -> word_ok i = true -> fw_get (t, v) d = Some fw ->
  block_answer d (req_payload t v i) =
    Ok (Some (hexlify (le16 t ++ le16 v ++ le16 i) ++ hexlify (fw_block (fw_data fw) i))).
Proof.
  intros d t v i fw Ht Hv Hi G.
  assert (P : fw_int_to_hex [t; v; i] = Ok (hexlify (concat (map le16 [t; v; i])))).
  { apply fw_int_to_hex_ok. rewrite words_ok3, Ht, Hv, Hi. reflexivity. }
  unfold block_answer, req_payload. rewrite P. cbv iota.
  rewrite (fw_hex_int_roundtrip _ _ P : fw_hex_to_int _ 3 = _), G.
  rewrite (fw_response_payload_ok _ _ _ _ Ht Hv Hi). reflexivity.
Qed.

Lemma respond_fw_config_spec : forall st n p,
  ((exists e, fw_hex_to_int p 5 = Raise e) /\ respond_fw_config st n p = (st, Ok None)) \/
  exists k req uns, get_fw_stores n (o_req st) (o_uns st) = (k, req, uns) /\
    respond_fw_config st n p =
      (mkOta (o_fw st) req uns (o_sta st),
       match k with
       | None => Ok None
       | Some (t, v) => match fw_get (t, v) (o_fw st) with
                        | None => Ok None
                        | Some fw => do r <- fw_config_payload t v fw; Ok (Some r)
                        end
       end).
Proof.
  intros st n p. unfold respond_fw_config.
  destruct (fw_hex_to_int p 5) as [ws|e] eqn:E.
  - right. destruct (fw_int_hex_roundtrip p 5 ws E) as (_ & L & _).
    destruct ws as [|a [|b [|c [|d [|e [|x r]]]]]]; try discriminate L.
    destruct (get_fw_stores n (o_req st) (o_uns st)) as [[k req] uns].
    exists k, req, uns. split; [reflexivity|].
    destruct k as [[t v]|]; [destruct (fw_get (t, v) (o_fw st))|]; reflexivity.
  - left. rewrite (request_caught_all p 5 e E). split; [exists e|]; reflexivity.
Qed.

Lemma respond_fw_config_keeps_fw : forall st n p, o_fw (fst (respond_fw_config st n p)) = o_fw st.
Proof.
  intros st n p.
  destruct (respond_fw_config_spec st n p) as [[_ ->]|(k & req & uns & _ & ->)]; reflexivity.
Qed.

(* a node scheduled for (t, v) that sends a well-formed config request is
   answered with the advertised header and is active afterwards *)
Lemma respond_fw_config_scheduled : forall st n p t v fw ws,
  fw_hex_to_int p 5 = Ok ws ->
  ns_get n (o_req st) = Some (t, v) ->
  fw_get (t, v) (o_fw st) = Some fw ->
  snd (respond_fw_config st n p) = (do r <- fw_config_payload t v fw; Ok (Some r)) /\
  active (fst (respond_fw_config st n p)) n = true.
Proof.
  intros st n p t v fw ws E S G.
  destruct (respond_fw_config_spec st n p) as [[[e E'] _]|(k & req & uns & E1 & ->)]; [congruence|].
  destruct (get_fw_stores_spec _ _ _ _ _ _ E1) as (Hk & _ & Hb). rewrite S in Hk. subst k.
  cbn [fst snd]. rewrite G. split; [reflexivity|].
  unfold active. cbn [o_uns]. rewrite Hb, Z.eqb_refl. reflexivity.
Qed.

Lemma respond_fw_config_active : forall st n p m, active st m = true ->
  active (fst (respond_fw_config st n p)) m = true.
Proof.
  intros st n p m A.
  destruct (respond_fw_config_spec st n p) as [[_ ->]|(k & req & uns & E & ->)]; [assumption|].
  destruct (get_fw_stores_spec _ _ _ _ _ _ E) as (Hk & _ & Hb).
  unfold active in *. cbn [fst o_uns o_sta]. rewrite Hb.
  destruct (m =? n) eqn:Em; [|assumption]. apply Z.eqb_eq in Em. subst m k.
  destruct (ns_get n (o_req st)); [reflexivity|assumption].
Qed.

Lemma serve_all_cons : forall st r rs,
  serve_all st (r :: rs) =
  (fst (serve_all (fst (serve st r)) rs), snd (serve st r) :: snd (serve_all (fst (serve st r)) rs)).
Proof.
  intros st r rs. cbn [serve_all]. destruct (serve st r) as [st1 a]. cbn [fst snd].
  destruct (serve_all st1 rs). reflexivity.
Qed.

Lemma serve_all_preserves : forall P : otast -> Prop,
  (forall st r, P st -> P (fst (serve st r))) ->
  forall rs st, P st -> P (fst (serve_all st rs)).
Proof.
  intros P H. induction rs as [|r rs IH]; intros st Hst; [assumption|].
  rewrite serve_all_cons. cbn [fst]. apply IH, H, Hst.
Qed.

Lemma serve_keeps_fw : forall st r, o_fw (fst (serve st r)) = o_fw st.
Proof.
  intros st [n p|n p]; [apply respond_fw_config_keeps_fw|apply respond_fw_keeps_fw].
Qed.

Lemma serve_all_keeps_fw : forall rs st, o_fw (fst (serve_all st rs)) = o_fw st.
Proof.
  intros rs st. apply (serve_all_preserves (fun s => o_fw s = o_fw st)); [|reflexivity].
  intros s r H. rewrite serve_keeps_fw. exact H.
Qed.

Lemma serve_all_keeps_active : forall rs st m, active st m = true -> active (fst (serve_all st rs)) m = true.
Proof.
  intros rs st m. apply (serve_all_preserves (fun s => active s m = true)).
  intros s [n p|n p] A; cbn [serve]; [apply respond_fw_config_active|rewrite respond_fw_active]; exact A.
Qed.

(* any sequence of block requests by nodes past their config request - any
   payloads, well-formed or not, for any firmware ids - is answered one by one
   by block_answer *)
Lemma serve_all_active : forall {A} (node : A -> Z) (pay : A -> pstr) l st,
  (forall a, In a l -> active st (node a) = true) ->
  snd (serve_all st (map (fun a => BlkReq (node a) (pay a)) l)) =
  map (fun a => block_answer (o_fw st) (pay a)) l.
Proof.
  intros A node pay. induction l as [|a l IH]; intros st H; [reflexivity|].
  cbn [map]. rewrite serve_all_cons. cbn [fst snd serve].
  rewrite (respond_fw_served st _ _ (H a (or_introl eq_refl))), IH, respond_fw_keeps_fw; [reflexivity|].
  intros b Hb. rewrite respond_fw_active. apply H. right. exact Hb.
Qed.

(* after ANY history of stream requests (any nodes, any payloads, any order)
   a block request is either not answered or answered by block_answer of the
   firmware dict as it was before the history *)
Lemma block_answer_history_independent : forall st hist n p,
  let st' := fst (serve_all st hist) in
  snd (respond_fw st' n p) = Ok None \/ snd (respond_fw st' n p) = block_answer (o_fw st) p.
Proof.
  intros st hist n p st'. unfold st'.
  rewrite <- (serve_all_keeps_fw hist st). apply respond_fw_pure.
Qed.

Lemma fold_left_preserves : forall {A B} (f : A -> B -> A) (P : A -> Prop),
  (forall a b, P a -> P (f a b)) -> forall l a, P a -> P (fold_left f l a).
Proof.
  intros A B f P H. induction l as [|b l IH]; intros a Ha; [assumption|]. apply IH, H, Ha.
Qed.

Lemma fold_schedule_fw : forall known k nids st, o_fw (fold_left (schedule known k) nids st) = o_fw st.
Proof.
  intros known k nids st. apply (fold_left_preserves _ (fun s => o_fw s = o_fw st)); [|reflexivity].
  intros s n H. unfold schedule. destruct (existsb (Z.eqb n) known); exact H.
Qed.

Lemma existsb_eqb_in : forall n l, In n l -> existsb (Z.eqb n) l = true.
Proof.
  intros n l H. apply existsb_exists. exists n. split; [exact H|apply Z.eqb_refl].
Qed.

(* the step for n schedules it, the later steps keep it *)
Lemma fold_schedule_req : forall known k n nids st,
  In n known -> In n nids ->
  ns_get n (o_req (fold_left (schedule known k) nids st)) = Some k.
Proof.
  intros known k n nids st Hk Hin. destruct (in_split _ _ Hin) as (l1 & l2 & ->).
  rewrite fold_left_app. cbn [fold_left].
  apply (fold_left_preserves _ (fun s => ns_get n (o_req s) = Some k)).
  - intros s m H. unfold schedule. destruct (existsb (Z.eqb m) known); [|exact H].
    cbn [o_req]. rewrite ns_get_set, H. destruct (n =? m); reflexivity.
  - unfold schedule. rewrite (existsb_eqb_in n known Hk). cbn [o_req].
    rewrite ns_get_set, Z.eqb_refl. reflexivity.
Qed.

(* make_update with an image: the prepared image is stored under (t, v) and
   every known node of nids is scheduled for (t, v) *)
Lemma make_update_spec : forall known st nids t v img,
  word_ok t = true -> word_ok v = true ->
  fw_get (t, v) (o_fw (make_update known st nids (AInt t) (AInt v) (Some img))) = Some (prepare_fw img) /\
  (forall n, In n known -> In n nids ->
     ns_get n (o_req (make_update known st nids (AInt t) (AInt v) (Some img))) = Some (t, v)).
Proof.
  intros known st nids t v img Ht Hv. unfold make_update. cbn [arg_int].
  rewrite Ht, Hv. cbn [negb orb].
  assert (S : forall d, fw_get (t, v) (fw_set (t, v) (prepare_fw img) d) = Some (prepare_fw img)).
  { intros d. rewrite fw_get_set, (proj2 (key_eqb_eq _ _) eq_refl). reflexivity. }
  rewrite S. split.
  - rewrite fold_schedule_fw. apply S.
  - intros n Hn Hin. apply fold_schedule_req; assumption.
Qed.

Lemma store_ok_del : forall n s, store_ok s -> store_ok (ns_del n s).
Proof.
  intros n s H m t v G. rewrite ns_get_del in G.
  destruct (m =? n); [discriminate|exact (H m t v G)].
Qed.

Lemma store_ok_set : forall n t v s, word_ok t = true -> word_ok v = true -> store_ok s -> store_ok (ns_set n (t, v) s).
Proof.
  intros n t v s Ht Hv H m t' v' G. rewrite ns_get_set in G.
  destruct (m =? n); [inversion G; subst; auto|exact (H m t' v' G)].
Qed.

Lemma get_fw_stores_ok : forall n a b k a' b', get_fw_stores n a b = (k, a', b') ->
  store_ok a -> store_ok b -> store_ok a' /\ store_ok b'.
Proof.
  intros n a b k a' b' E Ha Hb. unfold get_fw_stores in E.
  destruct (ns_get n a) as [[t v]|] eqn:Ea; [|destruct (ns_get n b) as [[t v]|] eqn:Eb];
    inversion E; subst k a' b'.
  - destruct (Ha n t v Ea) as [Ht Hv]. split; [apply store_ok_del; assumption|apply store_ok_set; assumption].
  - destruct (Hb n t v Eb) as [Ht Hv]. split; [assumption|apply store_ok_set; assumption].
  - split; assumption.
Qed.

Lemma fold_schedule_ok : forall known t v nids st,
  word_ok t = true -> word_ok v = true ->
  store_ok (o_req st) /\ store_ok (o_uns st) /\ store_ok (o_sta st) ->
  let st' := fold_left (schedule known (t, v)) nids st in
  store_ok (o_req st') /\ store_ok (o_uns st') /\ store_ok (o_sta st').
Proof.
  intros known t v nids st Ht Hv.
  apply (fold_left_preserves _ (fun s => store_ok (o_req s) /\ store_ok (o_uns s) /\ store_ok (o_sta s))).
  intros s n (H1 & H2 & H3). unfold schedule.
  destruct (existsb (Z.eqb n) known); [|auto]. cbn [o_req o_uns o_sta].
  split; [apply store_ok_set; assumption|split; apply store_ok_del; assumption].
Qed.
