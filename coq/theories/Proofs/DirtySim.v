(* C14: nothing in the machine READS the dirty flag except save_tick: two gateways that differ
   only in the flag stay so under every operation (a simulation over all handlers), hence the
   placement of periodic saves is irrelevant for everything but the flag and the file. *)
From Coq Require Import List NArith ZArith Bool String Lia.
From PMS Require Import Base.PyStr Base.PyInt Base.Exn Model.Codec Model.Rules Model.TableTypes
  Gen.Tables Model.Validate Model.Hex Model.Ota Model.Oracles Model.Gateway Spec.SerialApi
  Proofs.GwLemmas Proofs.GwInv Spec.TreeMeaning Proofs.TreeProofs Proofs.TreeHistory Proofs.DirtyProofs.
Import ListNotations.
Open Scope string_scope.
Open Scope list_scope.
Open Scope Z_scope.

Definition deq (a b : gw) : Prop := set_dirty a false = set_dirty b false.

Lemma deq_refl a : deq a a. Proof. reflexivity. Qed.
Lemma deq_sym a b : deq a b -> deq b a. Proof. unfold deq. congruence. Qed.
Lemma deq_trans a b c : deq a b -> deq b c -> deq a c. Proof. unfold deq. congruence. Qed.
Lemma deq_set_dirty a d : deq (set_dirty a d) a. Proof. reflexivity. Qed.

(* ... so the first is the second with another flag: whatever the machine reads of it is the same *)
Lemma deq_inv a b : deq a b -> exists d, a = set_dirty b d.
Proof. destruct a as [? ? ? ? ? d ?], b. unfold deq. cbn. intro H. inversion H. exists d. reflexivity. Qed.

Definition rgx {A} (p q : gw * A) : Prop := deq (fst p) (fst q) /\ snd p = snd q.
Definition rres {X} (R : X -> X -> Prop) (a b : res X) : Prop :=
  match a, b with
  | Ok x, Ok y => R x y
  | Raise e, Raise e' => e = e'
  | _, _ => False
  end.

Lemma rres_bind {X Y} (R : X -> X -> Prop) (S : Y -> Y -> Prop) a b k k' :
  rres R a b -> (forall x y, R x y -> rres S (k x) (k' y)) -> rres S (bind a k) (bind b k').
Proof.
  destruct a as [x|e], b as [y|e']; simpl; intros H K; try contradiction; [apply K; exact H|exact H].
Qed.

Lemma rres_eq {X} (R : X -> X -> Prop) (a : res X) : (forall x, R x x) -> rres R a a.
Proof. intro H. destruct a; simpl; [apply H|reflexivity]. Qed.

(* a step that does not see the flag *)
Lemma rres_bind_same {X Y} (S : Y -> Y -> Prop) (x : res X) k k' :
  (forall y, rres S (k y) (k' y)) -> rres S (bind x k) (bind x k').
Proof. intro K. destruct x; simpl; [apply K|reflexivity]. Qed.

Lemma rres_ok {X} (R : X -> X -> Prop) x y : R x y -> rres R (Ok x) (Ok y).
Proof. intro H. exact H. Qed.
Lemma rres_raise {X} (R : X -> X -> Prop) e : rres R (Raise e) (Raise e).
Proof. reflexivity. Qed.
Lemma rgx_intro {A} a b (x : A) : deq a b -> rgx (a, x) (b, x).
Proof. intro H. split; [exact H|reflexivity]. Qed.

(* The walk below has one shape.  The machine READS a state through get_node, next_id, gvalidate,
   internal_member, stream_member, create_set_message, tab and the field projections, never through
   g_dirty: on `set_dirty g d` each of these reduces to what it is on g, which is all `gwcbn` does.
   After it the two runs branch alike, and in every branch the states returned are built from
   deq-related states by the WRITERS (send, add_job_send, alert, put_node, set_ota, set_jobs, emit,
   add_sensor); each writer keeps deq (lemmas deq_*, collected in the hint database `deq`). *)
Ltac gwcbn := unfold get_node, next_id, gvalidate, internal_member, stream_member, create_set_message, tab;
              cbn [g_cf g_sensors g_ota g_metric g_jobs set_dirty].

Section Sim.
  Variable orc : oracles.
  Variable clock : Z.

  Lemma deq_send a b l : deq a b -> deq (send a l) (send b l).
  Proof. intros [d ->]%deq_inv. unfold send. destruct l; reflexivity. Qed.

  Lemma deq_add_job a b l : deq a b -> deq (add_job_send a l) (add_job_send b l).
  Proof.
    intros [d ->]%deq_inv. unfold add_job_send, send. gwcbn. destruct (cf_async (g_cf b)); [destruct l|]; reflexivity.
  Qed.

  Lemma deq_fold_add_job ls : forall a b, deq a b -> deq (fold_left add_job_send ls a) (fold_left add_job_send ls b).
  Proof. induction ls as [|l ls IH]; intros a b H; simpl; [exact H|]. apply IH, deq_add_job, H. Qed.

  Lemma deq_alert a b m : deq a b -> deq (alert a m) (alert b m).
  Proof.
    intros [d ->]%deq_inv. unfold alert. gwcbn. destruct (cf_callback (g_cf b)), (cf_persist (g_cf b)); reflexivity.
  Qed.

  Lemma deq_put_node a b nd : deq a b -> deq (put_node a nd) (put_node b nd).
  Proof. intros [d ->]%deq_inv. reflexivity. Qed.
  Lemma deq_set_ota a b o : deq a b -> deq (set_ota a o) (set_ota b o).
  Proof. intros [d ->]%deq_inv. reflexivity. Qed.
  Lemma deq_set_jobs a b j : deq a b -> deq (set_jobs a j) (set_jobs b j).
  Proof. intros [d ->]%deq_inv. reflexivity. Qed.
  Lemma deq_emit a b e : deq a b -> deq (emit a e) (emit b e).
  Proof. intros [d ->]%deq_inv. reflexivity. Qed.
  Lemma deq_add_sensor a b k : deq a b -> deq (add_sensor a k) (add_sensor b k).
  Proof. intros [d ->]%deq_inv. unfold add_sensor. gwcbn. destruct (zhas k (g_sensors b)); reflexivity. Qed.

  Hint Resolve rres_ok rres_raise rgx_intro deq_refl deq_set_dirty deq_send deq_add_job deq_fold_add_job deq_alert
    deq_put_node deq_set_ota deq_set_jobs deq_emit deq_add_sensor : deq.

  Lemma r_route g d m : rgx (route (set_dirty g d) m) (route g m).
  Proof.
    unfold route. gwcbn.
    destruct (m_type m =? vt_presentation (cf_tab (g_cf g))); [auto with deq|].
    destruct (zassoc (m_node m) (g_sensors g)) as [nd|]; [|auto with deq].
    destruct ((m_type m =? vt_stream (cf_tab (g_cf g))) || negb (sleeping nd)); auto with deq.
  Qed.

  Lemma r_route_opt g d r : rgx (route_opt (set_dirty g d) r) (route_opt g r).
  Proof. destruct r; simpl; [apply r_route|auto with deq]. Qed.

  (* the continuation of a step that returned a state and a value *)
  Lemma rres_bind_gx {A Y} (S : Y -> Y -> Prop) (a b : res (gw * A)) k k' :
    rres rgx a b -> (forall g d x, rres S (k (set_dirty g d, x)) (k' (g, x))) -> rres S (bind a k) (bind b k').
  Proof.
    intros H K. eapply rres_bind; [exact H|]. intros [ga x] [gb y] [[d D]%deq_inv E]. cbn [fst snd] in D, E.
    subst. apply K.
  Qed.

  Lemma r_is_sensor g d sid cid : rres rgx (is_sensor (set_dirty g d) sid cid) (is_sensor g sid cid).
  Proof.
    unfold is_sensor. gwcbn.
    match goal with |- context [negb ?r && _ && _] => destruct (negb r && node_id_ok sid && cf_ge20 (g_cf g)) end;
      [|auto with deq].
    destruct (sassoc (s2p "I_PRESENTATION") (vt_internal_members (cf_tab (g_cf g)))) as [ip|]; [|reflexivity].
    destruct (r_route g d (mkMsg sid system_child_id (vt_internal (cf_tab (g_cf g))) 0 ip [])) as [R1 R2].
    destruct (route (set_dirty g d) _) as [ga ra], (route g _) as [gb rb]. cbn [fst snd] in R1, R2. subst rb.
    destruct ra; auto with deq.
  Qed.

  Lemma flush_values_flag g d nid cid dv vals :
    flush_values_pre orc (set_dirty g d) nid cid dv vals = flush_values_pre orc g nid cid dv vals.
  Proof. induction vals as [|[vt x] r IH]; simpl; [reflexivity|]. rewrite IH. reflexivity. Qed.

  Lemma flush_children_flag g d nd chs :
    flush_children_pre orc (set_dirty g d) nd chs = flush_children_pre orc g nd chs.
  Proof.
    induction chs as [|[k ch] r IH]; simpl; [reflexivity|].
    destruct (zassoc (c_id ch) (n_new nd)); [|exact IH]. rewrite IH, flush_values_flag. reflexivity.
  Qed.

  Lemma r_smartsleep g d nd : rres deq (handle_smartsleep orc (set_dirty g d) nd) (handle_smartsleep orc g nd).
  Proof.
    unfold handle_smartsleep. set (nd2 := with_queue (init_smart_sleep nd) []).
    assert (H2 : deq (fold_left add_job_send (n_queue (init_smart_sleep nd)) (put_node (set_dirty g d) nd2))
                     (fold_left add_job_send (n_queue (init_smart_sleep nd)) (put_node g nd2)))
      by auto with deq.
    destruct (deq_inv _ _ H2) as [d2 ->]. rewrite flush_children_flag.
    destruct (flush_children_pre orc _ nd2 (n_children nd2)) as [sets [e|]]; auto with deq.
  Qed.

  (* the common frame of the handlers (GwLemmas.known_node_frame), for two runs side by side *)
  Lemma r_known_node g d sid cid (body body' : gw -> node -> res (gw * option msg)) :
    (forall g1 d1 nd, rres rgx (body (set_dirty g1 d1) nd) (body' g1 nd)) ->
    rres rgx (do gr <- is_sensor (set_dirty g d) sid cid;
              let '(g1, known) := gr in
              if negb known then Ok (g1, None)
              else match get_node g1 sid with None => Raise KeyError | Some nd => body g1 nd end)
             (do gr <- is_sensor g sid cid;
              let '(g1, known) := gr in
              if negb known then Ok (g1, None)
              else match get_node g1 sid with None => Raise KeyError | Some nd => body' g1 nd end).
  Proof.
    intro H. apply rres_bind_gx; [apply r_is_sensor|]. intros g1 d1 [|]; cbn [negb]; [|auto with deq]. gwcbn.
    destruct (zassoc sid (g_sensors g1)) as [nd|]; [apply H|reflexivity].
  Qed.

  Lemma r_presentation g d m : rres rgx (handle_presentation orc (set_dirty g d) m) (handle_presentation orc g m).
  Proof.
    unfold handle_presentation. destruct (m_child m =? system_child_id).
    - destruct (deq_inv _ _ (deq_add_sensor _ g (m_node m) (deq_set_dirty g d))) as [d1 ->]. gwcbn.
      destruct (zassoc (m_node m) (g_sensors (add_sensor g (m_node m)))); auto with deq.
    - apply r_known_node. intros g1 d1 nd. destruct (zhas (m_child m) (n_children nd)); auto with deq.
  Qed.

  Lemma r_set g d m : rres rgx (handle_set (set_dirty g d) m) (handle_set g m).
  Proof.
    unfold handle_set. gwcbn. apply r_known_node. intros g1 d1 nd. gwcbn.
    destruct (n_reboot _); [|auto with deq].
    apply rres_bind_same; intro z.
    apply rres_bind_same; intro r; auto with deq.
  Qed.

  Lemma r_req g d m : rres rgx (handle_req (set_dirty g d) m) (handle_req g m).
  Proof.
    unfold handle_req. gwcbn. apply r_known_node. intros g1 d1 nd.
    destruct (get_desired_value nd (m_child m) (m_sub m)); [|auto with deq].
    apply rres_bind_same; intro r; auto with deq.
  Qed.

  Lemma r_id_request g d m : rres rgx (handle_id_request (set_dirty g d) m) (handle_id_request g m).
  Proof.
    unfold handle_id_request. gwcbn.
    match goal with |- context [match ?x with Some _ => _ | None => Ok (g, None) end] => destruct x as [nid|] end;
      [|auto with deq].
    destruct (deq_inv _ _ (deq_add_sensor _ g nid (deq_set_dirty g d))) as [d1 ->]. gwcbn.
    destruct (negb (zhas nid (g_sensors (add_sensor g nid)))); [auto with deq|].
    apply rres_bind_same; intro z.
    apply rres_bind_same; intro r; auto with deq.
  Qed.

  Lemma r_node_attr f g d m : rres rgx (node_attr_handler f (set_dirty g d) m) (node_attr_handler f g m).
  Proof.
    unfold node_attr_handler. apply r_known_node. auto with deq.
  Qed.

  Lemma r_heartbeat g d m :
    rres rgx (handle_heartbeat_response orc (set_dirty g d) m) (handle_heartbeat_response orc g m).
  Proof.
    unfold handle_heartbeat_response. apply r_known_node. intros g1 d1 nd.
    eapply rres_bind; [apply r_smartsleep|]. intros g2a g2 [d2 ->]%deq_inv. gwcbn.
    destruct (zassoc (m_node m) (g_sensors g2)) as [nd2|]; auto with deq.
  Qed.

  Lemma r_pre_sleep g d m : rres rgx (handle_pre_sleep orc (set_dirty g d) m) (handle_pre_sleep orc g m).
  Proof.
    unfold handle_pre_sleep. apply r_known_node. intros g1 d1 nd.
    eapply rres_bind; [apply r_smartsleep|]. auto with deq.
  Qed.

  Lemma r_fw_config g d m : rres rgx (respond_fw_config (set_dirty g d) m) (respond_fw_config g m).
  Proof.
    unfold respond_fw_config. gwcbn.
    destruct (fw_hex_to_int (m_payload m) 5); [|auto with deq].
    destruct (ota_get_fw (g_ota g) (m_node m) true None) as [o' [[[t v] f]|]]; [|auto with deq].
    apply rres_bind_same; intro z.
    apply rres_bind_same; intro m'.
    apply rres_bind_same; intro pl; auto with deq.
  Qed.

  Lemma r_fw g d m : rres rgx (respond_fw (set_dirty g d) m) (respond_fw g m).
  Proof.
    unfold respond_fw. gwcbn.
    destruct (fw_hex_to_int (m_payload m) 3) as [[|rt [|rv [|rb [|x y]]]]|]; auto with deq.
    destruct (ota_get_fw (g_ota g) (m_node m) false (Some (rt, rv))) as [o' [[[t v] f]|]]; [|auto with deq].
    apply rres_bind_same; intro z.
    apply rres_bind_same; intro m'.
    apply rres_bind_same; intro pl; auto with deq.
  Qed.

  Lemma r_run_leaf h g d m : rres rgx (run_leaf orc clock h (set_dirty g d) m) (run_leaf orc clock h g m).
  Proof.
    destruct h; unfold run_leaf; try reflexivity; auto using r_fw_config, r_fw, r_id_request, r_node_attr,
      r_heartbeat, r_pre_sleep with deq.
    - unfold handle_config. gwcbn. apply rres_bind_same; intro r; auto with deq.
    - unfold handle_time. apply rres_bind_same; intro r; auto with deq.
    - unfold handle_gateway_ready. auto with deq.
    - unfold handle_gateway_ready_20. gwcbn.
      apply rres_bind_same; intro z.
      apply rres_bind_same; intro r; auto with deq.
    - unfold handle_discover_response. apply rres_bind_gx; [apply r_is_sensor|].
      intros g1 d1 x. cbn [fst]. auto with deq.
  Qed.

  Lemma r_stream g d m : rres rgx (handle_stream orc clock (set_dirty g d) m) (handle_stream orc clock g m).
  Proof.
    unfold handle_stream. gwcbn.
    apply rres_bind_gx; [apply r_is_sensor|]. intros g1 d1 [|]; cbn [negb]; [|auto with deq].
    destruct (sub_handler _ (m_type m) (m_sub m)) as [h|]; [|auto with deq].
    apply rres_bind_gx; [apply r_run_leaf|]. auto with deq.
  Qed.

  Lemma r_logic g d l : rres rgx (logic orc clock (set_dirty g d) l) (logic orc clock g l).
  Proof.
    unfold logic. destruct (decode l) as [m|]; [|auto with deq]. gwcbn.
    destruct (negb _); [auto with deq|].
    destruct (type_handler _ (m_type m)) as [h|]; [|reflexivity].
    apply rres_bind_gx.
    - destruct h; unfold run_handler, handle_internal; try reflexivity;
        auto using r_presentation, r_set, r_req, r_stream.
      gwcbn. destruct (sub_handler _ (m_type m) (m_sub m)); [apply r_run_leaf|auto with deq].
    - intros g1 d1 rep. destruct (r_route_opt g1 d1 rep) as [R1 R2].
      destruct (route_opt (set_dirty g1 d1) rep) as [g2a xa], (route_opt g1 rep) as [g2b xb].
      cbn [fst snd] in R1, R2. subst xb. auto with deq.
  Qed.

  Lemma r_set_child_value g d sid cid vt v mt ack :
    rres deq (set_child_value orc (set_dirty g d) sid cid vt v mt ack) (set_child_value orc g sid cid vt v mt ack).
  Proof.
    unfold set_child_value.
    apply rres_bind_gx; [apply r_is_sensor|]. intros g1 d1 [|]; cbn [negb]; [|auto with deq]. gwcbn.
    destruct (zassoc sid (g_sensors g1)) as [nd|]; [|reflexivity].
    destruct (sleeping nd); destruct (match vt_int vt with Some _ => _ | None => _ end);
      cbn [bind]; [|reflexivity|auto with deq|reflexivity].
    destruct (zassoc cid (n_new nd)) as [dv|]; [|reflexivity].
    destruct (validate_child_state orc nd cid vt v); cbn [bind]; [|reflexivity].
    destruct (vt_int vt); auto with deq.
  Qed.

  Lemma deq_update_fold t v nids : forall a b, deq a b ->
    deq (fold_left (update_one t v) nids a) (fold_left (update_one t v) nids b).
  Proof.
    induction nids as [|n r IH]; intros a b H; simpl; [exact H|]. apply IH.
    destruct (deq_inv _ _ H) as [d ->]. unfold update_one. gwcbn.
    destruct (zassoc n (g_sensors b)); auto with deq.
  Qed.

  Lemma r_update_fw g d nids fwt fwv bin :
    rres deq (update_fw (set_dirty g d) nids fwt fwv bin) (update_fw g nids fwt fwv bin).
  Proof.
    unfold update_fw. gwcbn.
    destruct bin as [[|b0 br]|]; [auto with deq| |].
    all: destruct (vt_int fwt) as [t|]; [|auto with deq]; destruct (vt_int fwv) as [v|]; [|auto with deq];
         destruct (negb ((0 <=? t) && (t <=? 65535)) || negb ((0 <=? v) && (v <=? 65535))); [auto with deq|].
    all: match goal with |- context [fw_lookup _ _ ?fwl] => destruct (fw_lookup t v fwl) end; [|auto with deq].
    all: apply (deq_update_fold t v nids); auto with deq.
  Qed.

  (* a call whose exception is logged *)
  Lemma r_or_raise g d (ra rb : res gw) : rres deq ra rb ->
    deq match ra with Ok g' => g' | Raise e => emit (set_dirty g d) (ERaise e) end
        match rb with Ok g' => g' | Raise e => emit g (ERaise e) end.
  Proof. destruct ra, rb; cbn [rres]; intro R; try contradiction; [exact R|subst; auto with deq]. Qed.

  Lemma r_dispatch g d l :
    deq match logic orc clock (set_dirty g d) l with
        | Ok (g1, Some r) => send g1 r | Ok (g1, None) => g1 | Raise e => emit (set_dirty g d) (ERaise e) end
        match logic orc clock g l with
        | Ok (g1, Some r) => send g1 r | Ok (g1, None) => g1 | Raise e => emit g (ERaise e) end.
  Proof.
    pose proof (r_logic g d l) as R.
    destruct (logic orc clock (set_dirty g d) l) as [[g1a ra]|ea], (logic orc clock g l) as [[g1b rb]|eb];
      cbn [rres] in R; try contradiction; [|subst eb; auto with deq].
    destruct R as [R1 R2]. cbn [fst snd] in R1, R2. subst rb. destruct ra; auto with deq.
  Qed.

  Theorem deq_step a b o : deq a b -> deq (step orc clock a o) (step orc clock b o).
  Proof.
    intros [d ->]%deq_inv. destruct o as [l| |s c vt x mt ack|ns t x bn|x]; cbn [step].
    - unfold recv. gwcbn. destruct (cf_async (g_cf b)); [apply r_dispatch|auto with deq].
    - unfold pump. gwcbn. destruct (g_jobs b) as [|[l|l] r]; [|apply (r_dispatch (set_jobs b r))|]; auto with deq.
    - apply r_or_raise, r_set_child_value.
    - apply r_or_raise, r_update_fw.
    - reflexivity.
  Qed.
End Sim.

(* the placement of periodic saves *)
Definition is_save (o : pop) : bool := match o with PSave => true | _ => false end.
Definition strip (pops : list pop) : list pop := filter (fun o => negb (is_save o)) pops.

Section SavePositions.
  Variable orc : oracles.
  Variable clock : Z.

  Definition SR (cf : config) (s s' : pstate) : Prop :=
    deq (fst s) (fst s') /\ PInv orc cf s /\ PInv orc cf s'.

  Lemma save_tick_deq g d : deq (fst (save_tick g d)) g.
  Proof. unfold save_tick. destruct (cf_persist (g_cf g) && g_dirty g); [apply deq_set_dirty|apply deq_refl]. Qed.

  Lemma restart_same cf s s' : cf_persist cf = true -> SR cf s s' ->
    pstep orc clock s PRestart = pstep orc clock s' PRestart.
  Proof.
    destruct s as [g d], s' as [g' d']. intros PE ([x E]%deq_inv & (C & I & S) & (C' & I' & S')).
    cbn [pstep fst snd] in *. subst g cf.
    rewrite (restart_spec (set_dirty g' x) d PE (S PE)), (restart_spec g' d' PE (S' PE)). reflexivity.
  Qed.

  Lemma strip_sim v cf pops : cfg_is v cf -> cf_persist cf = true -> Forall pop_ok pops ->
    forall s s', SR cf s s' -> SR cf (prun orc clock s pops) (prun orc clock s' (strip pops)).
  Proof.
    intros CI PE. induction pops as [|o r IH]; intros F s s' H; [exact H|].
    inversion F as [|? ? O F']; subst. destruct H as (D & I1 & I2).
    pose proof (pstep_inv orc clock v cf s o CI O (fun _ => PE) I1) as J1.
    unfold prun in *. destruct o as [o| |]; cbn [strip filter is_save negb fold_left].
    - apply (IH F'). split; [|split; [exact J1|apply (pstep_inv orc clock v); auto]].
      cbn [pstep fst]. apply deq_step. exact D.
    - apply (IH F'). split; [|split; [exact J1|exact I2]].
      cbn [pstep]. eapply deq_trans; [apply save_tick_deq|exact D].
    - apply (IH F').
      assert (E : pstep orc clock s PRestart = pstep orc clock s' PRestart)
        by (apply (restart_same cf); [exact PE|split; [exact D|split; assumption]]).
      rewrite <- E. split; [apply deq_refl|split; exact J1].
  Qed.

  (* C14.3 corollary: two histories that differ only in where periodic saves happen reach
     gateways that are equal but for the dirty flag, and after stop + restart the whole state
     (gateway and file) is identical *)
  Theorem save_tick_positions_irrelevant v cf p1 p2 : cfg_is v cf -> cf_persist cf = true ->
    Forall pop_ok p1 -> Forall pop_ok p2 -> strip p1 = strip p2 ->
    let s1 := prun orc clock (gw_init cf, None) p1 in
    let s2 := prun orc clock (gw_init cf, None) p2 in
    deq (fst s1) (fst s2) /\ pstep orc clock s1 PRestart = pstep orc clock s2 PRestart.
  Proof.
    intros CI PE F1 F2 E s1 s2.
    assert (R0 : SR cf (gw_init cf, None) (gw_init cf, None))
      by (split; [apply deq_refl|split; apply PInv_init]).
    destruct (strip_sim v cf p1 CI PE F1 _ _ R0) as (D1 & I1 & _).
    destruct (strip_sim v cf p2 CI PE F2 _ _ R0) as (D2 & I2 & _).
    fold s1 in D1, I1. fold s2 in D2, I2. rewrite E in D1.
    assert (D : deq (fst s1) (fst s2)) by (eapply deq_trans; [exact D1|apply deq_sym; exact D2]).
    split; [exact D|]. apply (restart_same cf); [exact PE|]. split; [exact D|split; assumption].
  Qed.
End SavePositions.
