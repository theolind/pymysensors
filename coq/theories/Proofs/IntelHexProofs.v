(* Round trip of the Intel-HEX model: loading the text our encoder writes for a
   contiguous image at address 0 gives back the image. *)
From Coq Require Import List NArith ZArith Bool Lia ZifyBool FMapPositive.
From PMS Require Import Base.PyStr Base.Exn Model.Hex Model.IntelHex Proofs.HexProofs Proofs.OtaProofs.
Import ListNotations.
Open Scope N_scope.

Definition eol_free (l : pstr) : bool := forallb (fun c => negb (is_eol c)) l.

Lemma split_eol_line : forall l rest, eol_free l = true ->
  split_eol (l ++ 10 :: rest) = l :: split_eol rest.
Proof.
  induction l as [|c l IH]; intros rest H; [reflexivity|].
  unfold eol_free in H. cbn [forallb] in H. apply andb_true_iff in H. destruct H as [Hc Hl].
  cbn [app split_eol]. destruct (is_eol c); [discriminate|].
  rewrite (IH rest Hl). reflexivity.
Qed.

Lemma hexdigit_not_eol : forall u d, is_eol (hexdigit u d) = false.
Proof.
  intros u d. unfold is_eol, hexdigit.
  destruct (d <? 10) eqn:E; destruct u; lia.
Qed.

Lemma hexlify_gen_eol_free : forall u b, eol_free (hexlify_gen u b) = true.
Proof.
  intros u b. induction b as [|x b IH]; [reflexivity|].
  rewrite hexlify_gen_cons. unfold eol_free in *. cbn [forallb].
  rewrite !hexdigit_not_eol, IH. reflexivity.
Qed.

Lemma print_record_eol_free : forall u r, eol_free (print_record u r) = true.
Proof.
  intros u r. exact (hexlify_gen_eol_free u (record_bytes r)).
Qed.

Lemma ihex_lines_print : forall u rs, ihex_lines (ihex_print u rs) = map (print_record u) rs.
Proof.
  intros u rs. unfold ihex_lines, ihex_print. induction rs as [|r rs IH]; [reflexivity|].
  cbn [map concat]. rewrite <- app_assoc. cbn [app].
  rewrite (split_eol_line _ _ (print_record_eol_free u r)).
  cbn [filter]. unfold print_record at 1. cbn [nonempty]. rewrite IH. reflexivity.
Qed.

Definition rec_ok (r : ihrec) : Prop :=
  r_addr r < 65536 /\ r_type r <= 5 /\ bytes_ok (r_data r) = true /\ N.of_nat (List.length (r_data r)) < 256.

Lemma fold_add_acc : forall b a, fold_left N.add b a = a + fold_left N.add b 0.
Proof.
  induction b as [|x b IH]; intros a; cbn [fold_left]; [lia|].
  rewrite (IH (a + x)), (IH (0 + x)). lia.
Qed.

Lemma sum_bytes_app : forall a b, sum_bytes (a ++ b) = sum_bytes a + sum_bytes b.
Proof.
  intros a b. unfold sum_bytes. rewrite fold_left_app. apply fold_add_acc.
Qed.

Lemma checksum_zero : forall b, sum_bytes (b ++ [checksum b]) mod 256 = 0.
Proof.
  intros b. rewrite sum_bytes_app. unfold checksum. set (sm := sum_bytes b).
  change (sum_bytes [(256 - sm mod 256) mod 256]) with ((256 - sm mod 256) mod 256).
  rewrite N.add_mod_idemp_r by discriminate.
  pose proof (N.div_mod' sm 256) as D. pose proof (N.mod_lt sm 256 ltac:(discriminate)) as L.
  replace (sm + (256 - sm mod 256)) with ((sm / 256 + 1) * 256) by lia.
  apply N.mod_mul. discriminate.
Qed.

Lemma checksum_byte : forall b, checksum b < 256.
Proof. intros b. unfold checksum. apply N.mod_lt. discriminate. Qed.

(* _decode_record on the digits of a length byte, two address bytes, a type
   byte, that many data bytes and a last byte that makes the sum 0 mod 256 *)
Lemma decode_bytes : forall u len ah al ty data c,
  bytes_ok (len :: ah :: al :: ty :: data ++ [c]) = true ->
  N.of_nat (List.length data) = len -> ty <= 5 ->
  sum_bytes (len :: ah :: al :: ty :: data ++ [c]) mod 256 = 0 ->
  decode_record (58 :: hexlify_gen u (len :: ah :: al :: ty :: data ++ [c])) =
  Some (mkRec (ah * 256 + al) ty data).
Proof.
  intros u len ah al ty data c Hb Hl Ht Hs. unfold decode_record.
  rewrite (unhexlify_hexlify_gen u _ Hb), Hs.
  replace (N.of_nat (List.length (len :: ah :: al :: ty :: data ++ [c]))) with (5 + len)
    by (cbn [List.length]; rewrite app_length; cbn [List.length]; lia).
  destruct (5 + len <? 5) eqn:E1; [lia|]. rewrite N.eqb_refl.
  destruct (ty <=? 5) eqn:E2; [|lia]. cbn [negb N.eqb].
  rewrite <- Hl, Nat2N.id, firstn_app, firstn_all, Nat.sub_diag, app_nil_r. reflexivity.
Qed.

Lemma decode_print : forall u r, rec_ok r -> decode_record (print_record u r) = Some r.
Proof.
  intros u [addr ty data] (Ha & Ht & Hd & Hl). cbn [r_addr r_type r_data] in *.
  unfold print_record, record_bytes. cbn [r_addr r_type r_data app].
  rewrite decode_bytes.
  - f_equal. f_equal. pose proof (N.div_mod' addr 256). lia.
  - repeat (apply bytes_ok_cons; split);
      [exact Hl|apply N.div_lt_upper_bound; [discriminate|exact Ha]|apply N.mod_lt; discriminate|lia|].
    rewrite bytes_ok_app, Hd. apply bytes_ok_cons. split; [apply checksum_byte|reflexivity].
  - reflexivity.
  - exact Ht.
  - apply (checksum_zero (N.of_nat (List.length data) :: addr / 256 :: addr mod 256 :: ty :: data)).
Qed.

Fixpoint load_recs (s : ihstate) (rs : list ihrec) : option ihstate :=
  match rs with
  | [] => Some s
  | rc :: r =>
      match apply_record s rc with
      | IhCont s' => load_recs s' r
      | IhEof s' => Some s'
      | IhErr => None
      end
  end.

Lemma load_lines_print : forall u rs s, Forall rec_ok rs ->
  load_lines s (map (print_record u) rs) = load_recs s rs.
Proof.
  intros u rs. induction rs as [|r rs IH]; intros s H; [reflexivity|].
  inversion H as [|x y Hr Hrs]; subst.
  cbn [map load_lines load_recs]. rewrite (decode_print u r Hr).
  destruct (apply_record s r); [apply IH; assumption|reflexivity|reflexivity].
Qed.

Definition span_of (P : list N) : option (N * N) :=
  match P with [] => None | _ => Some (0, N.of_nat (List.length P) - 1) end.

Definition holds (buf : PositiveMap.t N) (sp : option (N * N)) (P : list N) : Prop :=
  (forall a, ih_get buf a = nth_error P (N.to_nat a)) /\ sp = span_of P.

Lemma ih_get_put_same : forall buf a x, ih_get (ih_put buf a x) a = Some x.
Proof. intros. unfold ih_get, ih_put. apply PositiveMap.gss. Qed.

Lemma ih_get_put_other : forall buf a b x, a <> b -> ih_get (ih_put buf b x) a = ih_get buf a.
Proof.
  intros buf a b x H. unfold ih_get, ih_put. apply PositiveMap.gso.
  intros E. apply H. lia.
Qed.

Lemma holds_snoc : forall buf sp P x, holds buf sp P ->
  holds (ih_put buf (N.of_nat (List.length P)) x) (span_add sp (N.of_nat (List.length P))) (P ++ [x]).
Proof.
  intros buf sp P x [Hg Hs]. split.
  - intros a. destruct (N.eq_dec a (N.of_nat (List.length P))) as [->|Ha].
    + rewrite ih_get_put_same, Nat2N.id, nth_error_app2, Nat.sub_diag by apply le_n. reflexivity.
    + rewrite ih_get_put_other, Hg by assumption.
      destruct (Nat.lt_ge_cases (N.to_nat a) (List.length P)) as [Lt|Ge].
      * symmetry. apply nth_error_app1, Lt.
      * rewrite (proj2 (nth_error_None P _)), (proj2 (nth_error_None (P ++ [x]) _));
          [reflexivity|rewrite app_length; cbn [List.length]; lia|lia].
  - subst sp. destruct P as [|y P].
    + reflexivity.
    + unfold span_of, span_add. cbn [app].
      assert (L1 : N.of_nat (List.length (y :: P ++ [x])) = N.of_nat (List.length (y :: P)) + 1).
      { cbn [List.length]. rewrite app_length. cbn [List.length]. lia. }
      rewrite L1. generalize (N.of_nat (List.length (y :: P))). intros k.
      f_equal. f_equal; lia.
Qed.

Lemma store_bytes_holds : forall d P buf sp, holds buf sp P ->
  exists buf' sp', store_bytes buf sp (N.of_nat (List.length P)) d = Some (buf', sp') /\ holds buf' sp' (P ++ d).
Proof.
  induction d as [|x d IH]; intros P buf sp H.
  - exists buf, sp. rewrite app_nil_r. split; [reflexivity|assumption].
  - cbn [store_bytes].
    assert (E : ih_get buf (N.of_nat (List.length P)) = None).
    { rewrite (proj1 H), Nat2N.id. apply nth_error_None. lia. }
    rewrite E.
    destruct (IH (P ++ [x]) _ _ (holds_snoc buf sp P x H)) as (buf' & sp' & S & Hh).
    exists buf', sp'. rewrite <- app_assoc in Hh. cbn [app] in Hh. split; [|assumption].
    rewrite <- S. f_equal. rewrite app_length. cbn [List.length]. lia.
Qed.

Lemma map_nth_error_seq : forall (P : list N),
  map (fun i => match nth_error P i with Some x => x | None => 255 end) (seq 0 (List.length P)) = P.
Proof.
  induction P as [|x P IH]; [reflexivity|].
  cbn [List.length]. rewrite <- cons_seq, <- seq_shift, map_cons, map_map.
  cbn [nth_error]. f_equal. exact IH.
Qed.

Lemma map_nrange : forall {A} (f : N -> A) n a,
  map f (nrange a n) = map (fun i => f (a + N.of_nat i)) (seq 0 n).
Proof.
  intros A f n. induction n as [|n IH]; intros a; [reflexivity|].
  cbn [nrange]. rewrite <- cons_seq, <- seq_shift, !map_cons, map_map, IH.
  f_equal; [f_equal; lia|]. apply map_ext. intros i. f_equal. lia.
Qed.

Lemma tobin_holds : forall s P, holds (ih_buf s) (ih_span s) P -> ih_tobin s = P.
Proof.
  intros s P [Hg Hs]. unfold ih_tobin. rewrite Hs.
  destruct P as [|y P]; [reflexivity|]. unfold span_of.
  set (Q := y :: P) in *.
  replace (N.to_nat (N.of_nat (List.length Q) - 1 - 0 + 1)) with (List.length Q)
    by (unfold Q; cbn [List.length]; lia).
  rewrite map_nrange. rewrite <- (map_nth_error_seq Q) at 2.
  apply map_ext. intros i. rewrite Hg. rewrite N.add_0_l, Nat2N.id. reflexivity.
Qed.

Definition Inv (s : ihstate) (P : list N) (u : N) : Prop :=
  holds (ih_buf s) (ih_span s) P /\ ih_offset s = u * 65536.

Lemma data_records_nil : forall fuel n off u, data_records fuel n off u [] = [].
Proof. intros [|f]; reflexivity. Qed.

Lemma data_records_cons : forall f n off u x l,
  data_records (S f) n off u (x :: l) =
  (if off / 65536 =? u then [] else [mkRec 0 4 [off / 65536 / 256; (off / 65536) mod 256]])
  ++ mkRec (off mod 65536) 0 (firstn n (x :: l))
  :: data_records f n (off + N.of_nat n) (off / 65536) (skipn n (x :: l)).
Proof. reflexivity. Qed.

(* the extended linear address record, written when the upper address half changes *)
Lemma ext_record_step : forall s P u u', u' < 65536 -> Inv s P u ->
  let pre := if u' =? u then [] else [mkRec 0 4 [u' / 256; u' mod 256]] in
  Forall rec_ok pre /\
  exists s1, Inv s1 P u' /\ forall t, load_recs s (pre ++ t) = load_recs s1 t.
Proof.
  intros s P u u' Hu [Hh Ho]. destruct (u' =? u) eqn:E.
  - apply N.eqb_eq in E. subst u'. split; [constructor|]. exists s. split; [split; assumption|reflexivity].
  - split.
    + constructor; [|constructor]. unfold rec_ok. cbn [r_addr r_type r_data List.length].
      repeat split; try lia.
      repeat (apply bytes_ok_cons; split); [apply N.div_lt_upper_bound; [discriminate|exact Hu]|apply N.mod_lt; discriminate|reflexivity].
    + exists (mkIh (u' * 65536) (ih_buf s) (ih_span s) (ih_start s)).
      split; [split; [exact Hh|reflexivity]|]. intros t.
      cbn [app load_recs]. unfold apply_record. cbn [r_type r_data r_addr List.length be16 N.of_nat].
      change (N.of_nat 2 =? 2) with true. change (0 =? 0) with true. cbn [negb orb].
      pose proof (N.div_mod' u' 256) as D.
      replace (u' / 256 * 256 + u' mod 256) with u' by lia. reflexivity.
Qed.

Lemma apply_data_record : forall s P u d,
  Inv s P u -> u = N.of_nat (List.length P) / 65536 ->
  exists s', apply_record s (mkRec (N.of_nat (List.length P) mod 65536) 0 d) = IhCont s' /\ Inv s' (P ++ d) u.
Proof.
  intros s P u d [Hh Ho] Hu. unfold apply_record. cbn [r_type r_data r_addr].
  rewrite Ho.
  pose proof (N.div_mod' (N.of_nat (List.length P)) 65536) as D.
  replace (N.of_nat (List.length P) mod 65536 + u * 65536) with (N.of_nat (List.length P)) by lia.
  destruct (store_bytes_holds d P _ _ Hh) as (buf' & sp' & S & Hh').
  rewrite S. eexists. split; [reflexivity|]. split; [exact Hh'|reflexivity].
Qed.

Lemma load_recs_app_cont : forall pre s s' rest,
  (forall t, load_recs s (pre ++ t) = load_recs s' t) ->
  load_recs s (pre ++ rest) = load_recs s' rest.
Proof. intros. auto. Qed.

(* the records written for l, with P already in the buffer, are well formed and
   load l behind P.  off is the length of P unless l is empty (the encoder
   advances it by n also behind a short last record). *)
Lemma load_data_records : forall n fuel l P off u s,
  (1 <= n)%nat -> N.of_nat n < 256 -> (List.length l <= fuel)%nat -> bytes_ok l = true ->
  N.of_nat (List.length P) + N.of_nat (List.length l) <= 4294967296 ->
  l = [] \/ off = N.of_nat (List.length P) ->
  Inv s P u ->
  Forall rec_ok (data_records fuel n off u l) /\
  exists s' u', Inv s' (P ++ l) u' /\
    forall tail, load_recs s (data_records fuel n off u l ++ tail) = load_recs s' tail.
Proof.
  intros n. induction fuel as [|f IH]; intros l P off u s Hn Hn' Hf Hb Hsz Hoff HI;
    (destruct l as [|x l0];
     [rewrite data_records_nil, app_nil_r; split; [constructor|exists s, u; split; [exact HI|reflexivity]]|]).
  - destruct (Nat.nle_succ_0 _ Hf).
  - destruct Hoff as [Hoff| ->]; [discriminate|].
    rewrite data_records_cons. set (l := x :: l0) in *. set (off := N.of_nat (List.length P)).
    assert (Hu : off / 65536 < 65536).
    { apply N.div_lt_upper_bound; [discriminate|]. eapply N.lt_le_trans; [|exact Hsz].
      apply N.lt_add_pos_r. reflexivity. }
    destruct (ext_record_step s P u (off / 65536) Hu HI) as (Fpre & s1 & HI1 & Lpre).
    destruct (apply_data_record s1 P (off / 65536) (firstn n l) HI1 eq_refl) as (s2 & A & HI2).
    destruct (IH (skipn n l) (P ++ firstn n l) (off + N.of_nat n) (off / 65536) s2 Hn Hn')
      as (Frest & s' & u' & HI' & Lrest).
    + rewrite skipn_length. unfold l in *. cbn [List.length] in *. lia.
    + apply bytes_ok_skipn, Hb.
    + rewrite <- Nat2N.inj_add, <- app_length, <- app_assoc, firstn_skipn, app_length, Nat2N.inj_add.
      exact Hsz.
    + destruct (Nat.le_gt_cases n (List.length l)) as [Le|Gt].
      * right. rewrite app_length, firstn_length, (Nat.min_l _ _ Le), Nat2N.inj_add. reflexivity.
      * left. apply skipn_all2, Nat.lt_le_incl, Gt.
    + exact HI2.
    + split.
      * apply Forall_app. split; [exact Fpre|]. constructor; [|exact Frest].
        unfold rec_ok. cbn [r_addr r_type r_data].
        split; [apply N.mod_lt; discriminate|]. split; [discriminate|]. split; [apply bytes_ok_firstn, Hb|].
        pose proof (firstn_le_length n l). lia.
      * exists s', u'. rewrite <- app_assoc, firstn_skipn in HI'. split; [exact HI'|].
        intros tail. rewrite <- app_assoc, Lpre. cbn [app load_recs]. fold off in A. rewrite A. apply Lrest.
Qed.

Lemma holds_empty : holds (PositiveMap.empty N) None [].
Proof.
  split; [|reflexivity]. intros a. unfold ih_get. rewrite PositiveMap.gempty.
  destruct (N.to_nat a); reflexivity.
Qed.

(* load_fw(our_encoder(img)) = img for every byte string of at most 4 GiB, every
   record length 1..255, upper- or lower-case digits *)
Lemma ihex_roundtrip : forall u n img,
  (1 <= n <= 255)%nat -> bytes_ok img = true ->
  N.of_nat (List.length img) <= 4294967296 ->
  ihex_load (ihex_encode u n img) = Some img.
Proof.
  intros u n img Hn Hb Hsz.
  unfold ihex_load, ihex_encode, ihex_records. rewrite ihex_lines_print.
  destruct (load_data_records n (List.length img) img [] 0 0 ih_init (proj1 Hn) ltac:(lia) (le_n _) Hb Hsz
              (or_intror eq_refl) (conj holds_empty eq_refl)) as (F & s' & u' & [Hh _] & L).
  rewrite load_lines_print, L.
  - cbn [load_recs apply_record r_type r_data List.length]. change (N.of_nat 0 =? 0) with true.
    cbn [option_map]. rewrite (tobin_holds s' img Hh). reflexivity.
  - apply Forall_app. split; [exact F|]. constructor; [|constructor].
    unfold rec_ok. cbn. repeat split; lia.
Qed.
