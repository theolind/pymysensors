(* Smart sleep (C08): closed description of the wake-up flush (handle_smartsleep). *)
From Coq Require Import List NArith ZArith Bool String Lia.
From PMS Require Import Base.PyStr Base.PyInt Base.Exn Model.Codec Model.Rules Model.TableTypes
  Gen.Tables Model.Validate Model.Hex Model.Ota Model.Oracles Model.Gateway Spec.SerialApi
  Proofs.PyStrFacts Proofs.PyIntFacts Proofs.CodecProofs Proofs.ValidateProofs Proofs.GwLemmas Proofs.GwInv
  Proofs.SleepDefs.
Import ListNotations.
Open Scope string_scope.
Open Scope list_scope.
Open Scope Z_scope.

(* the set command for a desired value, as the flush builds it (gateway's table) *)
Definition set_msg_of (t : vtab) (nid cid vt : Z) (v : pyval) : msg :=
  mkMsg nid cid (vt_set t) 0 vt (py_str v).

(* one child: the REPORTED value types in insertion order whose desired entry is Some v *)
Definition child_msgs (t : vtab) (nid cid : Z) (dv : list (Z * option pyval)) (vals : list (Z * pyval))
  : list msg :=
  flat_map (fun kv => match zassoc (fst kv) dv with
                      | Some (Some v) => [set_msg_of t nid cid (fst kv) v]
                      | _ => []
                      end) vals.

(* all children in insertion order (the slot is looked up under child.id, as the code does) *)
Definition children_msgs (t : vtab) (nd : node) (chs : list (Z * child)) : list msg :=
  flat_map (fun kc => match zassoc (c_id (snd kc)) (n_new nd) with
                      | Some dv => child_msgs t (n_id nd) (c_id (snd kc)) dv (c_values (snd kc))
                      | None => []
                      end) chs.

Definition desired_msgs (t : vtab) (nd : node) : list msg := children_msgs t nd (n_children nd).
Definition desired_sets (t : vtab) (nd : node) : list pstr := map encode (desired_msgs t nd).

Lemma In_child_msgs t nid cid dv vals m :
  In m (child_msgs t nid cid dv vals) <->
  exists vt x v, In (vt, x) vals /\ zassoc vt dv = Some (Some v) /\ m = set_msg_of t nid cid vt v.
Proof.
  unfold child_msgs. rewrite in_flat_map. split.
  - intros [[vt x] [IN H]]. simpl in H. destruct (zassoc vt dv) as [[v|]|] eqn:E; try contradiction.
    destruct H as [<-|[]]. exists vt, x, v. auto.
  - intros (vt & x & v & IN & E & ->). exists (vt, x). split; [exact IN|]. simpl. rewrite E. left. reflexivity.
Qed.

Lemma In_desired_msgs t nd m :
  In m (desired_msgs t nd) <->
  exists k ch vt x v, In (k, ch) (n_children nd) /\ In (vt, x) (c_values ch) /\
                      desired nd (c_id ch) vt = Some v /\ m = set_msg_of t (n_id nd) (c_id ch) vt v.
Proof.
  unfold desired_msgs, children_msgs, desired. rewrite in_flat_map. split.
  - intros [[k ch] [IN H]]. simpl in H. destruct (zassoc (c_id ch) (n_new nd)) as [dv|] eqn:E; [|contradiction].
    apply In_child_msgs in H as (vt & x & v & IN2 & E2 & ->).
    exists k, ch, vt, x, v. rewrite E, E2. auto.
  - intros (k & ch & vt & x & v & IN & IN2 & D & ->). exists (k, ch). split; [exact IN|]. simpl.
    destruct (zassoc (c_id ch) (n_new nd)) as [dv|] eqn:E; [|discriminate].
    apply In_child_msgs. exists vt, x, v. split; [exact IN2|]. split; [|reflexivity].
    destruct (zassoc vt dv) as [[v'|]|]; congruence.
Qed.

Section Flush.
  Variable orc : oracles.

  Lemma flush_values_rel g nid cid dv vals :
    match flush_values orc g nid cid dv vals with
    | Ok l => flush_values_pre orc g nid cid dv vals = (l, None)
    | Raise e => exists pre, flush_values_pre orc g nid cid dv vals = (pre, Some e)
    end.
  Proof.
    induction vals as [|[vt x] r IH]; simpl; [reflexivity|].
    destruct (zassoc vt dv) as [[v|]|]; try exact IH.
    destruct (create_set_message orc g nid cid (VtInt vt) v None None) as [m|e]; cbn [bind]; [|eexists; reflexivity].
    destruct (flush_values orc g nid cid dv r) as [l|e]; cbn [bind].
    - rewrite IH. reflexivity.
    - destruct IH as [pre ->]. eexists. reflexivity.
  Qed.

  Lemma flush_children_rel g nd chs :
    match flush_children orc g nd chs with
    | Ok l => flush_children_pre orc g nd chs = (l, None)
    | Raise e => exists pre, flush_children_pre orc g nd chs = (pre, Some e)
    end.
  Proof.
    induction chs as [|[k ch] r IH]; simpl; [reflexivity|].
    destruct (zassoc (c_id ch) (n_new nd)) as [dv|]; [|exact IH].
    pose proof (flush_values_rel g (n_id nd) (c_id ch) dv (c_values ch)) as V.
    destruct (flush_values orc g (n_id nd) (c_id ch) dv (c_values ch)) as [a|e]; cbn [bind].
    - rewrite V. destruct (flush_children orc g nd r) as [b|e]; cbn [bind].
      + rewrite IH. reflexivity.
      + destruct IH as [pre ->]. eexists. reflexivity.
    - destruct V as [pre ->]. eexists. reflexivity.
  Qed.

  Lemma flush_values_closed g nid cid dv vals : dv_ok orc (tab g) nid cid dv ->
    flush_values orc g nid cid dv vals = Ok (map encode (child_msgs (tab g) nid cid dv vals)).
  Proof.
    intro D. induction vals as [|[vt x] r IH]; simpl; [reflexivity|].
    destruct (zassoc vt dv) as [[v|]|] eqn:E; try exact IH.
    pose proof (zassoc_Forall _ _ _ _ D E) as V. simpl in V.
    rewrite (create_set_message_valid orc g nid cid vt v V). cbn [bind]. rewrite IH. reflexivity.
  Qed.

  Lemma flush_children_closed g nd chs :
    Forall (fun cd => dv_ok orc (tab g) (n_id nd) (fst cd) (snd cd)) (n_new nd) ->
    flush_children orc g nd chs = Ok (map encode (children_msgs (tab g) nd chs)).
  Proof.
    intro N. induction chs as [|[k ch] r IH]; simpl; [reflexivity|].
    destruct (zassoc (c_id ch) (n_new nd)) as [dv|] eqn:E; [|exact IH].
    pose proof (zassoc_Forall _ _ _ _ N E) as D. simpl in D.
    rewrite (flush_values_closed g _ _ _ _ D). cbn [bind]. rewrite IH. cbn [bind].
    rewrite map_app. reflexivity.
  Qed.

  Lemma flush_children_pre_closed g nd chs :
    Forall (fun cd => dv_ok orc (tab g) (n_id nd) (fst cd) (snd cd)) (n_new nd) ->
    flush_children_pre orc g nd chs = (map encode (children_msgs (tab g) nd chs), None).
  Proof.
    intro N. pose proof (flush_children_rel g nd chs) as R.
    rewrite (flush_children_closed g nd chs N) in R. exact R.
  Qed.

  (* every slot after a wake-up (GwLemmas.add_slots_assoc) *)
  Lemma init_slot nd c :
    zassoc c (n_new (init_smart_sleep nd)) =
    match zassoc c (n_new nd) with Some dv => Some dv | None => if zhas c (n_children nd) then Some [] else None end.
  Proof. exact (add_slots_assoc (n_children nd) (n_new nd) c). Qed.

  (* after a wake-up every child has a slot *)
  Lemma init_has_slot nd c : zhas c (n_children nd) = true -> zhas c (n_new (init_smart_sleep nd)) = true.
  Proof. intro H. unfold zhas at 1. rewrite init_slot, H. destruct (zassoc c (n_new nd)); reflexivity. Qed.

  (* a node with at least one child sleeps from its first wake-up on *)
  Lemma init_sleeping nd : sleeping (init_smart_sleep nd) = match n_children nd with [] => sleeping nd | _ => true end.
  Proof.
    destruct (n_children nd) as [|[k ch] r] eqn:E; [unfold init_smart_sleep; rewrite E; reflexivity|].
    assert (H : zhas k (n_new (init_smart_sleep nd)) = true).
    { apply init_has_slot. rewrite E. unfold zhas. cbn [zassoc]. rewrite Z.eqb_refl. reflexivity. }
    unfold sleeping. destruct (n_new (init_smart_sleep nd)); [discriminate H|reflexivity].
  Qed.

  (* desired values are neither created nor cleared by the slot initialisation *)
  Lemma init_desired nd c vt : desired (init_smart_sleep nd) c vt = desired nd c vt.
  Proof.
    unfold desired. rewrite init_slot. destruct (zassoc c (n_new nd)); [reflexivity|].
    destruct (zhas c (n_children nd)); reflexivity.
  Qed.

  Lemma init_fields nd :
    n_id (init_smart_sleep nd) = n_id nd /\ n_children (init_smart_sleep nd) = n_children nd /\
    n_queue (init_smart_sleep nd) = n_queue nd /\ n_pver (init_smart_sleep nd) = n_pver nd /\
    n_reboot (init_smart_sleep nd) = n_reboot nd.
  Proof. repeat split; reflexivity. Qed.

  Definition woken (nd : node) : node := with_queue (init_smart_sleep nd) [].
  Definition flush_strings (t : vtab) (nd : node) : list pstr := n_queue nd ++ desired_sets t (init_smart_sleep nd).

  Theorem handle_smartsleep_closed g k nd : Inv orc g -> get_node g k = Some nd ->
    handle_smartsleep orc g nd =
    Ok (fold_left add_job_send (flush_strings (tab g) nd) (put_node g (woken nd))).
  Proof.
    intros I G. unfold handle_smartsleep, flush_strings.
    pose proof (get_node_ok orc _ _ _ I G) as NK.
    pose proof (init_smart_sleep_ok orc _ _ _ NK) as [N1a N1b]. cbn [fst snd] in N1a, N1b.
    fold (woken nd).
    change (n_queue (init_smart_sleep nd)) with (n_queue nd).
    set (g2 := fold_left add_job_send (n_queue nd) (put_node g (woken nd))).
    assert (T2 : tab g2 = tab g).
    { unfold tab. destruct (fold_add_job_send_frame (n_queue nd) (put_node g (woken nd))) as (_&_&C&_).
      unfold g2. rewrite C. reflexivity. }
    rewrite flush_children_pre_closed by (rewrite T2; exact N1b).
    rewrite T2. rewrite fold_left_app. reflexivity.
  Qed.
End Flush.
