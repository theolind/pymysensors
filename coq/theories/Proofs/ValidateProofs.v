(* C03: Message.validate over the generated tables accepts what the hand-written serial API accepts.
   Every validator of the tables is classified by its shape (classify); a classified shape accepts
   exactly its class (classify_sound); one evaluation per version compares sub-type lists and
   classes with the specification cell by cell (table_ok), and validate_conforms_tab turns a
   table that passes into the equation. *)
From Coq Require Import List NArith ZArith QArith Bool Lia.
From PMS Require Import Base.PyStr Base.PyInt Model.Codec Model.Rules Model.TableTypes
  Gen.Tables Model.Validate Spec.SerialApi Proofs.PyStrFacts.
Import ListNotations.
Open Scope Z_scope.

(* the validator shapes that occur in the generated tables, classified syntactically *)
Definition classify (r : rule) : option pclass :=
  match r with
  | RStr => Some AnyStr
  | RLit [] => Some Empty
  | RIn l => Some (Words l)
  | RFun FIsVersion => Some Version14
  | RAll [RAll [RCoerceInt; RRange lo hi true true]; RCoerceStr] => Some (IntRange lo hi)
  | RAll [RCoerceInt; RRange lo hi true true; RCoerceStr] => Some (IntRange lo hi)
  | RAll [RCoerceInt; RRange lo hi true true] => Some (IntRange lo hi)
  | RAll [RCoerceInt; RCoerceStr] => Some IntAny
  | RAll [RCoerceFloat; RRange lo hi true true; RCoerceStr] => Some (FloatRange lo hi)
  | RAll [RCoerceFloat; RRange lo hi true true] => Some (FloatRange lo hi)
  | RAll [RStr; RFun FRgb] => Some Rgb
  | RAll [RStr; RFun FRgbw] => Some Rgbw
  | RAll [RStr; RFun FGps] => Some Gps
  | RAny [RLit []; RAll [RCoerceInt; RCoerceStr]] => Some IntOrEmpty
  | RAny [RAll [RCoerceInt; RRange lo hi true true]; RLit a; RLit b] => Some (IntRangeOr lo hi [a; b])
  | RAny (RStr :: _) => Some AnyStr
  | _ => None
  end.

Section Sound.
  Variable orc_version : pstr -> bool.
  Variable orc_float : pstr -> fres.
  Notation accepts := (accepts orc_version orc_float).
  Notation in_class := (in_class orc_version orc_float).

  Lemma pstr_eqb_nil_r p : pstr_eqb p [] = match p with [] => true | _ => false end.
  Proof. destruct p; reflexivity. Qed.

  Ltac crush_shape :=
    repeat match goal with
    | H : match ?x with _ => _ end = Some _ |- _ => destruct x; try discriminate H
    | H : Some _ = Some _ |- _ => inversion H; subst; clear H
    end.

  Ltac atoms := repeat match goal with
    | |- context [mem_pstr ?a ?b] => destruct (mem_pstr a b)
    | |- context [range_ok_Z ?a ?b ?c ?d ?e] => destruct (range_ok_Z a b c d e)
    | |- context [range_ok_F ?a ?b ?c ?d ?e] => destruct (range_ok_F a b c d e)
    | |- context [pstr_eqb ?a ?b] => destruct (pstr_eqb a b)
    | |- context [orc_version ?a] => destruct (orc_version a)
    | |- context [hex_ok ?a] => destruct (hex_ok a)
    | |- context [Nat.eqb ?a ?b] => destruct (Nat.eqb a b)
    end; cbn [andb orb negb]; try reflexivity.

  Lemma classify_sound r k : classify r = Some k -> forall p, accepts r p = in_class k p.
  Proof.
    intros H p. unfold classify in H. crush_shape;
      unfold Rules.accepts, SerialApi.in_class, int_in, is_float;
      cbn [eval eval_fun option_map].
    (* Both sides are now booleans over the same few tests on p.  Two shapes accept any string.
       For the others it is enough to decide the scrutinee the two sides share: int(p) for the
       integer shapes (and, harmlessly, for those that only test p itself), float(p) for the float
       ranges, the fields of p.split(",") for gps; the remaining tests are decided by `atoms`. *)
    all: try reflexivity.
    all: try (destruct (parse p); cbn [option_map]; atoms; fail).
    all: try (destruct (orc_float p); atoms; fail).
    - destruct (split 44 p) as [|a [|b [|c [|d rest]]]]; try reflexivity;
        destruct (orc_float a), (orc_float b), (orc_float c); reflexivity.
    - (* int range or one of two literals: the literals are tested when int(p) fails or is out of range *)
      cbn [mem_pstr]; destruct (parse p); cbn [option_map]; atoms.
  Qed.
End Sound.

Definition zrange (n : Z) : list Z := map Z.of_nat (seq 0 (Z.to_nat (n + 1))).

Lemma zmem_In k l : zmem k l = true <-> In k l.
Proof.
  induction l as [|x l IH]; simpl; [split; [discriminate|tauto]|].
  rewrite orb_true_iff, IH, Z.eqb_eq. split; intros [H|H]; auto.
Qed.

Lemma In_zrange s n : In s (zrange n) <-> 0 <= s <= n.
Proof.
  unfold zrange. rewrite in_map_iff. split.
  - intros [k [E H]]. apply in_seq in H. lia.
  - intro H. exists (Z.to_nat s). split; [lia|]. apply in_seq. lia.
Qed.

Lemma zmem_zrange s n : zmem s (zrange n) = between 0 n s.
Proof.
  apply eq_true_iff_eq. rewrite zmem_In, In_zrange. unfold between.
  rewrite andb_true_iff, !Z.leb_le. tauto.
Qed.

Lemma between_In n s : between 0 n s = true <-> In s (zrange n).
Proof. rewrite <- zmem_zrange. apply zmem_In. Qed.

Lemma between_iff n s : between 0 n s = true <-> 0 <= s <= n.
Proof. rewrite between_In. apply In_zrange. Qed.

Fixpoint list_eqb {A} (eqb : A -> A -> bool) (a b : list A) : bool :=
  match a, b with
  | [], [] => true
  | x :: a', y :: b' => eqb x y && list_eqb eqb a' b'
  | _, _ => false
  end.
Lemma list_eqb_eq {A} (eqb : A -> A -> bool) (E : forall x y, eqb x y = true -> x = y) a b :
  list_eqb eqb a b = true -> a = b.
Proof.
  revert b; induction a as [|x a IH]; intros [|y b]; simpl; intro H; try reflexivity; try discriminate.
  apply andb_true_iff in H as [H1 H2]. f_equal; auto.
Qed.

Definition zlist_eqb := list_eqb Z.eqb.
Lemma zlist_eqb_eq a b : zlist_eqb a b = true -> a = b.
Proof. apply list_eqb_eq. intros x y. apply Z.eqb_eq. Qed.

Definition plist_eqb := list_eqb pstr_eqb.
Lemma plist_eqb_eq a b : plist_eqb a b = true -> a = b.
Proof. apply list_eqb_eq. intros x y. apply pstr_eqb_eq. Qed.

Definition pclass_eqb (a b : pclass) : bool :=
  match a, b with
  | AnyStr, AnyStr | Empty, Empty | IntAny, IntAny | IntOrEmpty, IntOrEmpty
  | Rgb, Rgb | Rgbw, Rgbw | Gps, Gps | Version14, Version14 => true
  | Words l, Words l' => plist_eqb l l'
  | IntRange a b, IntRange a' b' => Z.eqb a a' && Z.eqb b b'
  | FloatRange a b, FloatRange a' b' => Z.eqb a a' && Z.eqb b b'
  | IntRangeOr a b l, IntRangeOr a' b' l' => Z.eqb a a' && Z.eqb b b' && plist_eqb l l'
  | _, _ => false
  end.
Lemma pclass_eqb_eq a b : pclass_eqb a b = true -> a = b.
Proof.
  destruct a, b; simpl; intro H; try reflexivity; try discriminate;
    repeat match goal with H : _ && _ = true |- _ => apply andb_true_iff in H as [? ?] end;
    repeat match goal with
           | H : Z.eqb _ _ = true |- _ => apply Z.eqb_eq in H
           | H : plist_eqb _ _ = true |- _ => apply plist_eqb_eq in H
           end; subst; reflexivity.
Qed.

(* the finite table check, closed by vm_compute per version *)
Definition cell_ok (v : ver) (tab : vtab) (t s : Z) : bool :=
  match classify (payload_rule tab t s) with
  | Some k => pclass_eqb k (spec_class v t s)
  | None => false
  end.

Definition col_ok (v : ver) (tab : vtab) (t : Z) : bool :=
  zlist_eqb (subtypes tab t) (zrange (max_sub v t)) && forallb (cell_ok v tab t) (zrange (max_sub v t)).

Definition consts_ok (tab : vtab) : bool :=
  (vt_presentation tab =? 0) && (vt_internal tab =? 3) && (vt_stream tab =? 4) &&
  (vt_id_request tab =? 3) && (vt_id_response tab =? 4) &&
  zlist_eqb (map fst (vt_mtypes tab)) [0; 1; 2; 3; 4].

Definition table_ok (v : ver) (tab : vtab) : bool :=
  consts_ok tab && col_ok v tab 0 && col_ok v tab 1 && col_ok v tab 2 && col_ok v tab 3 && col_ok v tab 4.

Section Conform.
  Variable orc_version : pstr -> bool.
  Variable orc_float : pstr -> fres.

  (* the child id and command rules, jointly: Python tests the command against the child id,
     the specification the child id against the command *)
  Lemma child_type_conforms tab m :
    consts_ok tab = true ->
    child_ok tab m && type_ok tab m =
      spec_child_ok (m_type m) (m_sub m) (m_child m) && between 0 4 (m_type m).
  Proof.
    unfold consts_ok. intro H.
    repeat match type of H with _ && _ = true => apply andb_true_iff in H as [H ?] end.
    repeat match goal with
           | H : Z.eqb _ _ = true |- _ => apply Z.eqb_eq in H
           | H : zlist_eqb _ _ = true |- _ => apply zlist_eqb_eq in H
           end.
    unfold child_ok, type_ok, spec_child_ok, one_of, c_internal, c_stream, c_presentation, system_child_id.
    repeat match goal with H : _ = _ |- _ => rewrite H; clear H end.
    rewrite (zmem_zrange (m_type m) 4 : zmem _ [0; 1; 2; 3; 4] = _).
    generalize (m_type m) (m_sub m) (m_child m). intros t s c. cbn [zmem existsb].
    destruct (between 0 4 t) eqn:B.
    - (* set and req exclude child 255: by type_ok on the left, by the bound 254 on the right *)
      apply between_In in B. simpl in B.
      destruct B as [<-|[<-|[<-|[<-|[<-|[]]]]]]; cbn [Z.eqb Pos.eqb andb orb];
        destruct (Z.eqb_spec c 255) as [->|N]; try reflexivity;
        unfold between; do 2 f_equal; lia.
    - rewrite <- zmem_zrange in B. simpl in B.
      repeat (apply orb_false_iff in B as [E B]; rewrite ?E; clear E).
      destruct (c =? 255); cbn [andb orb]; rewrite !andb_false_r; reflexivity.
  Qed.

  Lemma col_conforms v tab t s p :
    col_ok v tab t = true ->
    zmem s (subtypes tab t) && accepts orc_version orc_float (payload_rule tab t s) p =
    between 0 (max_sub v t) s && in_class orc_version orc_float (spec_class v t s) p.
  Proof.
    unfold col_ok. intro H. apply andb_true_iff in H as [H1 H2].
    apply zlist_eqb_eq in H1. rewrite H1, zmem_zrange.
    destruct (between 0 (max_sub v t) s) eqn:B; [|reflexivity]. apply between_In in B.
    rewrite forallb_forall in H2. specialize (H2 s B). unfold cell_ok in H2.
    destruct (classify (payload_rule tab t s)) as [k|] eqn:K; [|discriminate].
    apply pclass_eqb_eq in H2. subst. apply classify_sound. exact K.
  Qed.

  Theorem validate_conforms_tab v tab m :
    table_ok v tab = true ->
    validate orc_version orc_float tab m =
    spec_accepts orc_version orc_float v (m_node m) (m_child m) (m_type m) (m_ack m) (m_sub m) (m_payload m).
  Proof.
    unfold table_ok. intro H.
    repeat match type of H with _ && _ = true => apply andb_true_iff in H as [H ?] end.
    unfold validate, spec_accepts.
    change (node_ok m) with (between 0 255 (m_node m)). change (ack_ok m) with (one_of (m_ack m) [0; 1]).
    rewrite <- (andb_assoc _ (child_ok tab m)), (child_type_conforms tab m H), andb_assoc.
    destruct (between 0 4 (m_type m)) eqn:BT; [|rewrite !andb_false_r; reflexivity].
    rewrite <- !andb_assoc. unfold sub_ok, payload_ok.
    rewrite (col_conforms v tab (m_type m) (m_sub m) (m_payload m)); [reflexivity|].
    apply between_In in BT. simpl in BT. destruct BT as [<-|[<-|[<-|[<-|[<-|[]]]]]]; assumption.
  Qed.
End Conform.

Definition tab_of (v : ver) : vtab :=
  match v with V14 => tab_14 | V15 => tab_15 | V20 => tab_20 | V21 => tab_21 | V22 => tab_22 end.

Theorem validate_conforms orc_version orc_float v m :
  validate orc_version orc_float (tab_of v) m =
  spec_accepts orc_version orc_float v (m_node m) (m_child m) (m_type m) (m_ack m) (m_sub m) (m_payload m).
Proof. apply validate_conforms_tab. destruct v; vm_compute; reflexivity. Qed.

(* finite facts about the generated tables *)
Lemma zassoc_In {A} k (l : list (Z * A)) a : zassoc k l = Some a -> In (k, a) l.
Proof.
  induction l as [|[k' a'] l IH]; simpl; [discriminate|].
  destruct (Z.eqb_spec k k'); intro H; [inversion H; subst; left; reflexivity|right; auto].
Qed.

Definition has_rule (tab : vtab) (t s : Z) : bool :=
  match zassoc t (vt_payloads tab) with
  | Some d => match zassoc s d with Some _ => true | None => false end
  | None => false
  end.

Definition mono_ok (cur next : vtab) : bool :=
  forallb (fun tl => forallb (fun s => zmem s (subtypes next (fst tl))) (snd tl)) (vt_mtypes cur).
Definition rules_ok (tab : vtab) : bool :=
  forallb (fun tl => forallb (fun s => has_rule tab (fst tl) s) (snd tl)) (vt_mtypes tab).
Definition schema_ok (tab : vtab) : bool :=
  forallb (fun p => match child_schema tab p with Some _ => true | None => false end)
          (subtypes tab (vt_presentation tab)).

Lemma lift_mtypes (P : Z -> Z -> bool) tab :
  forallb (fun tl => forallb (fun s => P (fst tl) s) (snd tl)) (vt_mtypes tab) = true ->
  forall t s, zmem s (subtypes tab t) = true -> P t s = true.
Proof.
  intros H t s M. unfold subtypes in M.
  destruct (zassoc t (vt_mtypes tab)) as [l|] eqn:E; [|discriminate].
  apply zassoc_In in E. rewrite forallb_forall in H. specialize (H _ E). simpl in H.
  rewrite forallb_forall in H. apply H. apply zmem_In. exact M.
Qed.

Theorem subtypes_monotone v t s :
  zmem s (subtypes (tab_of v) t) = true -> zmem s (subtypes (tab_of (ver_next v)) t) = true.
Proof.
  apply (lift_mtypes (fun t s => zmem s (subtypes (tab_of (ver_next v)) t))).
  change (mono_ok (tab_of v) (tab_of (ver_next v)) = true). destruct v; vm_compute; reflexivity.
Qed.

Theorem every_subtype_has_rule v t s :
  zmem s (subtypes (tab_of v) t) = true -> has_rule (tab_of v) t s = true.
Proof.
  apply (lift_mtypes (has_rule (tab_of v))). change (rules_ok (tab_of v) = true).
  destruct v; vm_compute; reflexivity.
Qed.

Theorem child_schema_total v p :
  zmem p (subtypes (tab_of v) (vt_presentation (tab_of v))) = true ->
  exists sch, child_schema (tab_of v) p = Some sch.
Proof.
  intro M. assert (S : schema_ok (tab_of v) = true) by (destruct v; vm_compute; reflexivity).
  unfold schema_ok in S. rewrite forallb_forall in S. apply zmem_In in M. specialize (S _ M).
  destruct (child_schema (tab_of v) p) as [sch|]; [exists sch; reflexivity|discriminate].
Qed.

(* all generated validators are well-kinded: no Range on a str, no In on an int, ... *)
Definition kinds_ok (tab : vtab) : bool :=
  forallb (fun td => forallb (fun sr => well_kinded (snd sr)) (snd td)) (vt_payloads tab) &&
  forallb (fun sr => well_kinded (snd sr)) (vt_setreq tab).
