(* Link between the two developments that talk about versions:
   - the hand-written verdicts of the core machine in Base/Version.v (ver_ge14, safe_num,
     const_index, num_ge, floor_index), and
   - the C18 model of validation.is_version / safe_is_version / const.get_const, which is
     interpreted over the facts GENERATED from the source (Gen/Signatures.v: the comparison
     tests, the key order, the key -> module table) and its specification Spec/ConfigSpec.v.
   On every dotted numeric string they agree, so a change of the library's tests or tables
   breaks these lemmas at build time. *)
From Coq Require Import List NArith ZArith Bool Lia String.
From PMS Require Import Base.PyStr Base.PyInt Base.Exn Base.Version Proofs.PyStrFacts
  Model.ConfigSyntax Model.ConfigVersion Spec.ConfigSpec Proofs.ConfigOrder Proofs.ConfigProofs
  Proofs.VersionProofs Gen.Signatures.
Import ListNotations.
Open Scope N_scope.
Open Scope list_scope.

Lemma nz_nonzero l : nz l = nonzero l.
Proof. reflexivity. Qed.

Lemma num_ge_cmpr a : forall b, num_ge a b = match cmpr b a with Gt => false | _ => true end.
Proof.
  induction a as [|x a IH]; intros [|y b].
  - reflexivity.
  - cbn [num_ge cmpr]. rewrite all_zero_nonzero. change (nz (y :: b)) with (nonzero (y :: b)).
    destruct (nonzero (y :: b)); reflexivity.
  - cbn [num_ge cmpr]. destruct (nz (x :: a)); reflexivity.
  - cbn [num_ge cmpr]. destruct (N.compare_spec y x) as [E|L|G].
    + subst y. rewrite N.eqb_refl. apply IH.
    + assert (X : (x =? y) = false) by (apply N.eqb_neq; lia). rewrite X. apply N.ltb_lt. exact L.
    + assert (X : (x =? y) = false) by (apply N.eqb_neq; lia). rewrite X. apply N.ltb_ge. lia.
Qed.

(* num_ge is the order of the C18 specification (pad with zeros, compare lexicographically) *)
Theorem num_ge_le_numb a b : num_ge a b = le_numb b a.
Proof. unfold le_numb. rewrite cmpv_cmpr. apply num_ge_cmpr. Qed.

(* the five constants modules in the order of Gen/Tables.all_tabs *)
Definition const_modules : list pstr :=
  [s2p "mysensors.const_14"; s2p "mysensors.const_15"; s2p "mysensors.const_20";
   s2p "mysensors.const_21"; s2p "mysensors.const_22"].

(* the hand-written key list of Base/Version.v is the generated one, in the generated order,
   and each index names the module the generated table maps the key to *)
Lemma const_keys_match_generated :
  map fst const_keys_desc = iter_keys /\
  map (fun ki => Some (nth (snd ki) const_modules [])) const_keys_desc
  = map (fun k => assoc k const_versions) iter_keys /\
  get_const_default = nth 0 const_modules [] /\ safe_fallback = v_floor.
Proof. vm_compute. repeat split; reflexivity. Qed.

Lemma floor_module_index l : floor_module l = nth (floor_index l) const_modules [].
Proof.
  rewrite floor_module_down. unfold floor_index, supported_down, not_above. cbn [List.find fst].
  rewrite <- !num_ge_le_numb.
  destruct (num_ge l [2; 2]); [reflexivity|]. destruct (num_ge l [2; 1]); [reflexivity|].
  destruct (num_ge l [2; 0]); [reflexivity|]. destruct (num_ge l [1; 5]); [reflexivity|].
  destruct (num_ge l [1; 4]); reflexivity.
Qed.

Section Link.
  Variable orc : avop -> pstr -> pstr -> option bool.
  Variable cont : pstr -> bool.

  Theorem is_version_core v : dotted_numeric v = true ->
    is_version orc cont (VStr v) = if ver_ge14 v then Ok v else Raise VolInvalid.
  Proof.
    intro Hv. unfold is_version, is_version_with, is_container. cbn [py_str].
    rewrite Hv. cbn [negb andb]. rewrite andb_false_r. rewrite (is_version_test_num orc v Hv).
    rewrite ver_ge14_num, num_ge_le_numb.
    destruct (le_numb [1; 4] (sections v)); reflexivity.
  Qed.

  Theorem safe_is_version_core v : dotted_numeric v = true ->
    safe_is_version orc cont (VStr v) = Ok (safe_num v).
  Proof.
    intro Hv. rewrite (safe_is_version_num orc cont v Hv), safe_num_spec, num_ge_le_numb.
    reflexivity.
  Qed.

  Theorem gateway_const_core v : dotted_numeric v = true ->
    gateway_const orc cont (VStr v) = Ok (nth (const_index v) const_modules []) /\
    node_const orc cont (VStr v) = Ok (nth (const_index v) const_modules []).
  Proof.
    intro Hv. rewrite node_same_rule, (gateway_const_floor orc cont v Hv), const_index_floor,
      floor_module_index. split; reflexivity.
  Qed.
End Link.
