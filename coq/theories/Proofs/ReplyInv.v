(* C05: the invariant on stored data, withheld commands, queued jobs and the transport log
   (Inv5), and the walk over the handlers, which shows of each handler result at once that it
   keeps Inv5 and that it is the entry of the reply table; hence every command the gateway ever
   emits or withholds is canonical and validates for the configured version
   (emitted_canonical_valid). *)
From Coq Require Import List NArith ZArith Bool String Lia.
From PMS Require Import Base.PyStr Base.PyInt Base.Exn Model.Codec Model.Rules Model.TableTypes
  Gen.Tables Model.Validate Model.Hex Model.Ota Model.Oracles Model.Gateway Spec.SerialApi Spec.ReplyTable
  Proofs.PyStrFacts Proofs.PyIntFacts Proofs.CodecProofs Proofs.ValidateProofs Proofs.GwLemmas Proofs.GwInv
  Proofs.HexProofs Proofs.OtaProofs Proofs.ReplyBase.
Import ListNotations.
Open Scope string_scope.
Open Scope list_scope.
Open Scope Z_scope.

Lemma wire_ok_chars p : Forall (fun c => isspace c = false /\ c <> semi) p -> wire_ok p = true.
Proof.
  intro F. apply wire_ok_spec. split.
  - induction F as [|c r [_ H] _ IH]; [reflexivity|]. cbn [mem_N].
    destruct (N.eqb_spec semi c) as [E|_]; [symmetry in E; contradiction|exact IH].
  - unfold no_trailing. apply Forall_rev in F. destruct (rev p) as [|c r]; [reflexivity|].
    inversion F as [|? ? [H _] _]; subst. rewrite H. reflexivity.
Qed.

Lemma wire_ok_print z : wire_ok (print z) = true.
Proof.
  apply wire_ok_chars. pose proof (print_numchars z) as F.
  eapply Forall_impl; [|exact F]. intros c H. destruct (numchar_facts c H) as (_ & S & N & _).
  split; assumption.
Qed.

Lemma hexdigit_plain d : (d < 16)%N -> isspace (hexdigit false d) = false /\ hexdigit false d <> semi.
Proof.
  intro H. destruct (N_lt16_cases d H) as [->|[->|[->|[->|[->|[->|[->|[->|[->|[->|[->|[->|[->|[->|[->| ->]]]]]]]]]]]]]]];
    split; try (vm_compute; reflexivity); discriminate.
Qed.

Lemma wire_ok_hexlify b : bytes_ok b = true -> wire_ok (hexlify b) = true.
Proof.
  intro B. apply wire_ok_chars. unfold hexlify. induction b as [|x b IH]; [constructor|].
  apply bytes_ok_cons in B as [Hx Hb]. destruct (byte_split x Hx) as (H1 & H2 & _).
  cbn [hexlify_gen]. constructor; [apply hexdigit_plain; exact H1|].
  constructor; [apply hexdigit_plain; exact H2|apply IH; exact Hb].
Qed.

Lemma fw_int_to_hex_wire ws p : fw_int_to_hex ws = Ok p -> exists b, p = hexlify b /\ bytes_ok b = true.
Proof.
  unfold fw_int_to_hex. destruct (pack_le16 ws) as [b|e] eqn:E; cbn [bind]; [|discriminate].
  intro H. inversion H; subst. exists b. split; [reflexivity|]. apply (pack_le16_bytes ws b E).
Qed.

Lemma spec_next_id_range ids nid : Forall (fun k => 0 <= k) ids -> spec_next_id ids = Some nid -> 1 <= nid <= 254.
Proof.
  unfold spec_next_id. intro F. destruct ids as [|i r]; [intro H; cbn in H; inversion H; lia|].
  set (mx := fold_left Z.max (i :: r) i). assert (L : i <= mx) by apply (proj1 (fold_max_ge _ _)).
  inversion F; subst. clearbody mx. destruct (Z.leb_spec (mx + 1) 254); intro E; inversion E; lia.
Qed.

Section Inv5.
  Variable orc : oracles.
  Variable clock : Z.
  Variable v : ver.

  Notation vw g := (view_of clock g).
  Definition vld (m : msg) : bool := validate (orc_version orc) (orc_float orc) (tab_of v) m.
  Notation in_cls := (in_class (orc_version orc) (orc_float orc)).

  Lemma vld_spec n c ty a s p :
    vld (mkMsg n c ty a s p) = true <->
    (0 <= n <= 255 /\ spec_child_ok ty s c = true /\ between 0 4 ty = true /\ (a = 0 \/ a = 1) /\
     between 0 (max_sub v ty) s = true /\ in_cls (spec_class v ty s) p = true).
  Proof.
    unfold vld. rewrite validate_conforms. unfold spec_accepts. cbn [m_node m_child m_type m_ack m_sub m_payload].
    rewrite !andb_true_iff. unfold one_of. cbn [existsb]. unfold between at 1.
    split.
    - intros (((((A & B) & C) & D) & E) & F). repeat split; try assumption; lia.
    - intros (A & B & C & D & E & F). repeat split; try assumption; lia.
  Qed.

  Lemma vld_eta m : vld m = vld (mkMsg (m_node m) (m_child m) (m_type m) (m_ack m) (m_sub m) (m_payload m)).
  Proof. destruct m; reflexivity. Qed.

  Lemma gvalidate_vld g m : cfgv v g -> gvalidate orc g m = vld m.
  Proof. intro C. unfold gvalidate, vld. rewrite (cfgv_tab v g C). reflexivity. Qed.

  Definition goodmsg (x : msg) : Prop := wire_ok (m_payload x) = true /\ vld x = true.
  Definition good (l : pstr) : Prop := exists x, l = encode x /\ goodmsg x.
  Definition good_to (k : Z) (l : pstr) : Prop := exists x, l = encode x /\ goodmsg x /\ m_node x = k.

  Lemma good_to_good k l : good_to k l -> good l.
  Proof. intros (x & E & G & _). exists x. split; assumption. Qed.

  Lemma good_presentation_request n : v_ge20 v = true -> 0 <= n <= 255 -> goodmsg (presentation_request n).
  Proof.
    intros G R. split; [reflexivity|]. apply vld_spec. split; [exact R|].
    destruct v; try discriminate G; vm_compute; auto 10.
  Qed.

  Lemma good_reboot n : 0 <= n <= 255 -> goodmsg (reboot_order n).
  Proof.
    intros R. split; [reflexivity|]. apply vld_spec. split; [exact R|]. destruct v; vm_compute; auto 10.
  Qed.

  Lemma good_discover : v_ge20 v = true -> goodmsg (discover_request 255).
  Proof.
    intros G. split; [reflexivity|]. apply vld_spec. split; [lia|].
    destruct v; try discriminate G; vm_compute; auto 10.
  Qed.

  Lemma good_config n (b : bool) : 0 <= n <= 255 -> goodmsg (mkMsg n 255 3 0 6 (s2p (if b then "M" else "I"))).
  Proof.
    intros R. split; [destruct b; reflexivity|]. apply vld_spec. split; [exact R|].
    destruct v, b; vm_compute; auto 10.
  Qed.

  Lemma good_time n z : 0 <= n <= 255 -> goodmsg (mkMsg n 255 3 0 1 (print z)).
  Proof.
    intros R. split; [apply wire_ok_print|]. apply vld_spec. split; [exact R|].
    assert (K : spec_class v 3 1 = IntOrEmpty) by (destruct v; reflexivity). rewrite K.
    cbn [in_class]. rewrite parse_print, orb_true_r.
    destruct v; vm_compute; auto 10.
  Qed.

  (* the id response copies the request's child id, which validation leaves unconstrained for
     id request / id response *)
  Lemma good_id_response n c i : 0 <= n <= 255 -> 1 <= i <= 254 -> goodmsg (mkMsg n c 3 0 4 (print i)).
  Proof.
    intros R Ri. split; [apply wire_ok_print|]. apply vld_spec. split; [exact R|].
    assert (K : spec_class v 3 4 = IntRange 1 254) by (destruct v; reflexivity). rewrite K.
    cbn [in_class]. unfold int_in. rewrite parse_print. unfold range_ok_Z.
    assert (X : (1 <=? i) && (i <=? 254) = true) by lia. rewrite X.
    destruct v; vm_compute; auto 10.
  Qed.

  (* a value accepted as a set message of (n, c, sub-type) with some ack is accepted with any ack *)
  Lemma vld_ack n c ty a a' s p : vld (mkMsg n c ty a s p) = true -> (a' = 0 \/ a' = 1) ->
    vld (mkMsg n c ty a' s p) = true.
  Proof. rewrite !vld_spec. intros (A & B & C & D & E & F) H. repeat split; try assumption; lia. Qed.

  (* OTA responses: same header as the validated stream request, sub-type 1 / 3, any text *)
  Lemma vld_stream_response n c a s s' p p' : vld (mkMsg n c 4 a s p) = true -> (s' = 1 \/ s' = 3) ->
    vld (mkMsg n c 4 a s' p') = true.
  Proof.
    rewrite !vld_spec. intros (A & B & C & D & E & F) H. split; [exact A|]. repeat split; try assumption.
    destruct H as [-> | ->]; destruct v; reflexivity.
  Qed.

  (* validated internal messages other than id request / response carry child 255 *)
  Lemma internal_child n c a s p : vld (mkMsg n c 3 a s p) = true -> s <> 3 -> s <> 4 -> c = 255.
  Proof.
    rewrite vld_spec. intros (_ & B & _) N3 N4. unfold spec_child_ok, one_of in B.
    change (3 =? c_internal) with true in B. cbn [andb orb existsb] in B.
    destruct (Z.eqb_spec s 3); [contradiction|]. destruct (Z.eqb_spec s 4); [contradiction|].
    cbn [orb] in B. change (3 =? c_stream) with false in B. cbn [orb] in B. lia.
  Qed.

  Definition rv_ok (k c : Z) (e : Z * pyval) : Prop :=
    wire_ok (py_str (snd e)) = true /\ vld (mkMsg k c 1 0 (fst e) (py_str (snd e))) = true.
  Definition dv_wire (dv : list (Z * option pyval)) : Prop :=
    Forall (fun e => match snd e with Some x => wire_ok (py_str x) = true | None => True end) dv.

  Definition node5 (kn : Z * node) : Prop :=
    0 <= fst kn <= 255 /\
    Forall (fun cc => Forall (rv_ok (fst kn) (fst cc)) (c_values (snd cc))) (n_children (snd kn)) /\
    Forall (fun cd => dv_wire (snd cd)) (n_new (snd kn)) /\
    Forall (good_to (fst kn)) (n_queue (snd kn)).

  Definition job5 (j : job) : Prop := match j with JSend l => good l | JLogic _ => True end.
  Definition ev5 (e : event) : Prop := match e with ESend l => good l | _ => True end.
  Definition fw5 (o : ota) : Prop := Forall (fun e => bytes_ok (fw_data (snd e)) = true) (o_fw o).

  Definition Inv5 (g : gw) : Prop :=
    Forall node5 (g_sensors g) /\ Forall job5 (g_jobs g) /\ Forall ev5 (g_log g) /\ fw5 (g_ota g).

  Lemma Inv5_jobs g : Inv5 g -> Forall job5 (g_jobs g).
  Proof. intros (_ & J & _). exact J. Qed.
  Lemma Inv5_fw g : Inv5 g -> fw5 (g_ota g).
  Proof. intros (_ & _ & _ & F). exact F. Qed.

  Lemma Inv5_init cf : Inv5 (gw_init cf).
  Proof. repeat split; constructor. Qed.

  Lemma Inv5_emit g e : Inv5 g -> ev5 e -> Inv5 (emit g e).
  Proof.
    intros (A & B & C & D) E. repeat split; try assumption. simpl. apply Forall_app. split; [exact C|].
    constructor; [exact E|constructor].
  Qed.

  Lemma Inv5_send g l : Inv5 g -> good l -> Inv5 (send g l).
  Proof. intros I G. unfold send. destruct l; [exact I|]. apply Inv5_emit; assumption. Qed.

  Lemma Inv5_add_job g l : Inv5 g -> good l -> Inv5 (add_job_send g l).
  Proof.
    intros I G. unfold add_job_send. destruct (cf_async (g_cf g)); [apply Inv5_send; assumption|].
    destruct I as (A & B & C & D). repeat split; try assumption. simpl. apply Forall_app. split; [exact B|].
    constructor; [exact G|constructor].
  Qed.

  Lemma Inv5_fold_add_job ls g : Inv5 g -> Forall good ls -> Inv5 (fold_left add_job_send ls g).
  Proof.
    revert g. induction ls as [|l ls IH]; intros g I F; simpl; [exact I|].
    inversion F; subst. apply IH; [apply Inv5_add_job; assumption|assumption].
  Qed.

  Lemma Inv5_alert g m : Inv5 g -> Inv5 (alert g m).
  Proof.
    intros I. unfold alert.
    assert (I1 : Inv5 (if cf_callback (g_cf g) then emit g (ECallback m (proj (g_sensors g))) else g)).
    { destruct (cf_callback (g_cf g)); [apply Inv5_emit; [exact I|exact Logic.I]|exact I]. }
    destruct (cf_persist (g_cf g)); [|exact I1].
    destruct I1 as (A & B & C & D). repeat split; assumption.
  Qed.

  Lemma Inv5_put_node g nd : Inv5 g -> node5 (n_id nd, nd) -> Inv5 (put_node g nd).
  Proof.
    intros (A & B & C & D) N. repeat split; try assumption. simpl. apply Forall_zset; assumption.
  Qed.

  Lemma get_node_node5 g k nd : Inv5 g -> get_node g k = Some nd -> node5 (k, nd).
  Proof. intros (A & _) G. exact (zassoc_Forall _ _ _ _ A G). Qed.

  Lemma Inv5_add_sensor g sid : Inv5 g -> 0 <= sid <= 255 -> Inv5 (add_sensor g sid).
  Proof.
    intros I R. unfold add_sensor. destruct (zhas sid (g_sensors g)); [exact I|].
    destruct I as (A & B & C & D). repeat split; try assumption. simpl. apply Forall_app. split; [exact A|].
    constructor; [|constructor]. split; [exact R|]. repeat split; constructor.
  Qed.

  Lemma Inv5_set_ota g o : Inv5 g -> fw5 o -> Inv5 (set_ota g o).
  Proof. intros (A & B & C & _) D. repeat split; assumption. Qed.

  Lemma Inv5_set_jobs g j : Inv5 g -> Forall job5 j -> Inv5 (set_jobs g j).
  Proof. intros (A & _ & C & D) B. repeat split; assumption. Qed.

  Lemma node5_same k nd nd' : n_children nd' = n_children nd -> n_new nd' = n_new nd -> n_queue nd' = n_queue nd ->
    node5 (k, nd) -> node5 (k, nd').
  Proof. unfold node5. simpl. intros -> -> ->. tauto. Qed.

  Lemma Inv5_enqueue g x : Inv orc g -> Inv5 g -> goodmsg x -> Inv5 (enqueue g x).
  Proof.
    intros I I5 G. unfold enqueue. destruct (get_node g (m_node x)) as [nd|] eqn:GN; [|exact I5].
    pose proof (get_node_ok orc g _ _ I GN) as [K _]. simpl in K.
    apply Inv5_put_node; [exact I5|]. simpl. rewrite K.
    destruct (get_node_node5 g _ _ I5 GN) as (R & CH & NW & Q).
    split; [exact R|]. split; [exact CH|]. split; [exact NW|]. simpl.
    apply Forall_app. split; [exact Q|]. constructor; [|constructor].
    exists x. split; [reflexivity|]. split; [exact G|reflexivity].
  Qed.

  Lemma Inv5_deliver g x : cfgv v g -> Inv orc g -> Inv5 g -> goodmsg x -> Inv5 (deliver g x).
  Proof.
    intros C I I5 G. unfold deliver. rewrite (route_closed v g x C).
    destruct (m_type x =? 0); [exact I5|].
    destruct (withheld (vsleep g) x); [apply Inv5_enqueue; assumption|].
    apply Inv5_add_job; [exact I5|]. exists x. split; [reflexivity|exact G].
  Qed.

  (* the presentation request of is_sensor is addressed to sid, and is only made when sid is a
     node id (`sensorid in range(BROADCAST_ID + 1)`), for ANY sid *)
  Lemma Inv5_ask g sid : cfgv v g -> Inv orc g -> Inv5 g -> Inv5 (ask g sid).
  Proof.
    intros C I I5. unfold ask. rewrite (proj2 C), ge20_eq. destruct (node_id_ok sid && v_ge20 v) eqn:E; [|exact I5].
    apply andb_true_iff in E as [NK GE]. apply Inv5_deliver; try assumption.
    apply good_presentation_request; [exact GE|apply node_id_ok_iff; exact NK].
  Qed.

  Lemma vld_node_range m : vld m = true -> 0 <= m_node m <= 255.
  Proof. rewrite vld_eta, vld_spec. tauto. Qed.

  Lemma ucv_node5 k nd c s p : node5 (k, nd) -> rv_ok k c (s, PS p) -> node5 (k, update_child_value nd c s p).
  Proof.
    intros (R & CH & NW & Q) RV. simpl in R, CH, NW, Q. unfold update_child_value.
    destruct (zassoc c (n_children nd)) as [ch|] eqn:E; [|split; [exact R|]; split; [exact CH|]; split; assumption].
    assert (CH' : Forall (fun cc => Forall (rv_ok k (fst cc)) (c_values (snd cc)))
                         (zset c (mkChild (c_id ch) (c_type ch) (c_desc ch) (zset s (PS p) (c_values ch))) (n_children nd))).
    { apply Forall_zset; [exact CH|]. simpl. apply Forall_zset; [|exact RV].
      pose proof (zassoc_Forall _ _ _ _ CH E) as X. simpl in X. exact X. }
    destruct (zassoc c (n_new nd)) as [dv|] eqn:D.
    - split; [exact R|]. split; [exact CH'|]. split; [|exact Q]. simpl. apply Forall_zset; [exact NW|]. simpl.
      apply Forall_zset; [|exact Logic.I]. pose proof (zassoc_Forall _ _ _ _ NW D) as X. simpl in X. exact X.
    - split; [exact R|]. split; [exact CH'|]. split; assumption.
  Qed.

  Lemma desired5 g n nd c s x : cfgv v g -> Inv orc g -> Inv5 g -> get_node g n = Some nd ->
    get_desired_value nd c s = Some x ->
    wire_ok (py_str x) = true /\ vld (mkMsg n c 1 0 s (py_str x)) = true.
  Proof.
    intros C I I5 G. pose proof (get_node_ok orc g _ _ I G) as [K N]. simpl in K, N.
    destruct (get_node_node5 g _ _ I5 G) as (_ & CH & NW & _). simpl in CH, NW.
    unfold get_desired_value. destruct (zassoc c (n_children nd)) as [ch|] eqn:E; [|discriminate].
    assert (REP : zassoc s (c_values ch) = Some x ->
                  wire_ok (py_str x) = true /\ vld (mkMsg n c 1 0 s (py_str x)) = true).
    { intro S. pose proof (zassoc_Forall _ _ _ _ CH E) as X. simpl in X.
      pose proof (zassoc_Forall _ _ _ _ X S) as Y. exact Y. }
    destruct (sleeping nd); [|exact REP].
    destruct (zassoc c (n_new nd)) as [dv|] eqn:D; [|exact REP].
    destruct (zassoc s dv) as [[y|]|] eqn:S; try exact REP.
    intro H. inversion H; subst y. split.
    - pose proof (zassoc_Forall _ _ _ _ NW D) as X. simpl in X.
      pose proof (zassoc_Forall _ _ _ _ X S) as Y. exact Y.
    - pose proof (zassoc_Forall _ _ _ _ N D) as X. simpl in X.
      pose proof (zassoc_Forall _ _ _ _ X S) as Y. simpl in Y. unfold dvalid in Y.
      rewrite (cfgv_tab v g C), k_set, K in Y. exact Y.
  Qed.

  Lemma init_smart_sleep5 k nd : node5 (k, nd) -> node5 (k, init_smart_sleep nd).
  Proof.
    intros (R & CH & NW & Q). split; [exact R|]. split; [exact CH|]. split; [|exact Q]. simpl.
    apply fold_left_preserves; [|exact NW]. intros nw [c ch] F. simpl. destruct (zhas c nw); [exact F|].
    apply Forall_app. split; [exact F|]. repeat constructor.
  Qed.

  Lemma flush_values_pre5 g nid cid dv vals : cfgv v g -> dv_wire dv ->
    Forall good (fst (flush_values_pre orc g nid cid dv vals)).
  Proof.
    intros C DW. induction vals as [|[vt x] r IH]; simpl; [constructor|].
    destruct (zassoc vt dv) as [[y|]|] eqn:E; try exact IH.
    destruct (create_set_message orc g nid cid (VtInt vt) y None None) as [m0|e0] eqn:CM; [|constructor].
    destruct (flush_values_pre orc g nid cid dv r) as [rest e']. simpl in *. constructor; [|exact IH].
    destruct (create_set_message_ok _ _ _ _ _ _ _ _ _ CM) as (vti & _ & -> & GV).
    eexists. split; [reflexivity|]. split.
    - pose proof (zassoc_Forall _ _ _ _ DW E) as X. exact X.
    - rewrite <- (gvalidate_vld g _ C). exact GV.
  Qed.

  Lemma flush_children_pre5 g nd chs : cfgv v g -> Forall (fun cd => dv_wire (snd cd)) (n_new nd) ->
    Forall good (fst (flush_children_pre orc g nd chs)).
  Proof.
    intros C NW. induction chs as [|[kk ch] r IH]; simpl; [constructor|].
    destruct (zassoc (c_id ch) (n_new nd)) as [dv|] eqn:E; [|exact IH].
    pose proof (zassoc_Forall _ _ _ _ NW E) as DW. simpl in DW.
    pose proof (flush_values_pre5 g (n_id nd) (c_id ch) dv (c_values ch) C DW) as P.
    destruct (flush_values_pre orc g (n_id nd) (c_id ch) dv (c_values ch)) as [a [e|]]; simpl in *; [exact P|].
    destruct (flush_children_pre orc g nd r) as [b e']. simpl in *. apply Forall_app. split; assumption.
  Qed.

  Lemma handle_smartsleep5 g k nd g2 : cfgv v g -> Inv orc g -> Inv5 g -> get_node g k = Some nd ->
    handle_smartsleep orc g nd = Ok g2 -> Inv5 g2.
  Proof.
    intros C I I5 G. unfold handle_smartsleep.
    pose proof (get_node_ok orc g _ _ I G) as [K _]. simpl in K.
    pose proof (init_smart_sleep5 k nd (get_node_node5 g _ _ I5 G)) as N1.
    set (nd1 := init_smart_sleep nd) in *.
    set (nd2 := with_queue nd1 []).
    assert (N2 : node5 (n_id nd2, nd2)).
    { change (n_id nd2) with (n_id nd). rewrite K. destruct N1 as (R & CH & NW & Q).
      split; [exact R|]. split; [exact CH|]. split; [exact NW|constructor]. }
    set (g1 := put_node g nd2).
    assert (I1 : Inv5 g1) by (apply Inv5_put_node; assumption).
    set (g2' := fold_left add_job_send (n_queue nd1) g1).
    assert (I2 : Inv5 g2').
    { apply Inv5_fold_add_job; [exact I1|]. destruct N1 as (_ & _ & _ & Q). simpl in Q.
      eapply Forall_impl; [|exact Q]. intros l. apply good_to_good. }
    assert (C2 : cfgv v g2').
    { apply (cfgv_ext v g); [|exact C]. destruct (fold_add_job_send_frame (n_queue nd1) g1) as (_&_&CC&_). exact CC. }
    pose proof (flush_children_pre5 g2' nd2 (n_children nd2) C2) as FP.
    destruct (flush_children_pre orc g2' nd2 (n_children nd2)) as [sets e]. simpl in FP.
    destruct e; [discriminate|]. intro H. inversion H; subst g2.
    apply Inv5_fold_add_job; [exact I2|]. apply FP. destruct N1 as (_ & _ & NW & _). exact NW.
  Qed.

  Lemma fw_lookup_bytes t x l f : Forall (fun e : (Z * Z) * fware => bytes_ok (fw_data (snd e)) = true) l ->
    fw_lookup t x l = Some f -> bytes_ok (fw_data f) = true.
  Proof. intros F L. destruct (fw_lookup_In _ _ _ _ L) as [k I]. exact (proj1 (Forall_forall _ _) F _ I). Qed.

  Lemma ota_get_fw5 o nid first req : fw5 o ->
    fw5 (fst (ota_get_fw o nid first req)) /\
    forall t x f, snd (ota_get_fw o nid first req) = Some (t, x, f) -> bytes_ok (fw_data f) = true.
  Proof.
    intro F. destruct (ota_get_fw_fw o nid first req) as [E L]. split; [unfold fw5; rewrite E; exact F|].
    intros t x f H. exact (fw_lookup_bytes _ _ _ _ F (L _ _ _ H)).
  Qed.

  Definition eff5 (g g1 : gw) (N : list msg) : Prop := heff g g1 N /\ (Inv5 g -> Inv5 g1).

  Lemma eff5_refl g : eff5 g g [].
  Proof. split; [apply heff_refl|exact (fun H => H)]. Qed.

  Lemma eff5_trans_l g g1 g2 N : eff5 g g1 [] -> eff5 g1 g2 N -> eff5 g g2 N.
  Proof. intros [A A5] [B B5]. split; [exact (heff_trans_l g g1 g2 N A B)|auto]. Qed.

  Lemma eff5_alert g m : eff5 g (alert g m) [].
  Proof. split; [apply heff_alert|apply Inv5_alert]. Qed.

  Lemma eff5_add_sensor g sid : (Inv5 g -> 0 <= sid <= 255) -> eff5 g (add_sensor g sid) [].
  Proof. intro R. split; [apply heff_add_sensor|intro I5; apply Inv5_add_sensor; auto]. Qed.

  Lemma eff5_set_ota g o : (fw5 (g_ota g) -> fw5 o) -> eff5 g (set_ota g o) [].
  Proof.
    intro F. split; [apply heff_set_ota|]. intro I5. exact (Inv5_set_ota g o I5 (F (Inv5_fw g I5))).
  Qed.

  Lemma eff5_ask g sid : cfgv v g -> Inv orc g -> 0 <= sid <= 255 -> eff5 g (ask g sid) (unknown_reply v sid).
  Proof.
    intros C I R. split; [|apply Inv5_ask; assumption].
    pose proof (heff_ask orc v g sid C I) as H. rewrite (proj2 (node_id_ok_iff sid) R) in H. exact H.
  Qed.

  Lemma eff5_put_alert g n nd nd' m : Inv orc g -> get_node g n = Some nd ->
    n_id nd' = n_id nd -> n_queue nd' = n_queue nd -> sleeping nd' = sleeping nd ->
    (node5 (n, nd) -> node5 (n, nd')) -> eff5 g (alert (put_node g nd') m) [].
  Proof.
    intros I G E1 E2 E3 N5. pose proof (get_node_ok orc g _ _ I G) as [K _]. simpl in K. split.
    - eapply heff_trans_l; [|apply heff_alert].
      apply (heff_put_node g nd nd'); [rewrite E1, K; exact G|exact E2|exact E3].
    - intro I5. apply Inv5_alert, Inv5_put_node; [exact I5|]. rewrite E1, K. apply N5, (get_node_node5 g); assumption.
  Qed.

  (* What the walk over the handlers shows of a result r in state g: Inv5 is kept and the reply
     is a command that validates; and, unless the wake-up flush is part of the call (wu), the
     commands emitted or withheld inside the call, followed by the reply as far as routing lets
     it through, are the entry P of the reply table.  (wu is false except for the heartbeat
     response / pre-sleep notification of a KNOWN node: their flush is C08's.) *)
  Definition hpost (g : gw) (wu : bool) (P : list msg) (r : res (gw * option msg)) : Prop :=
    forall g1 rep, r = Ok (g1, rep) ->
      (Inv5 g -> Inv5 g1 /\ forall x, rep = Some x -> goodmsg x) /\
      (wu = false -> exists N, heff g g1 N /\ N ++ olist_np rep = P).

  Lemma hpost_raise g wu P e : hpost g wu P (Raise e).
  Proof. intros g1 rep H. discriminate H. Qed.

  Lemma hpost_silent g wu g1 N : eff5 g g1 N -> hpost g wu N (Ok (g1, None)).
  Proof.
    intros [E E5] g' rep H. inversion H; subst g' rep. split.
    - intro I5. split; [exact (E5 I5)|discriminate].
    - intros _. exists N. split; [exact E|apply app_nil_r].
  Qed.

  Lemma hpost_reply g wu g1 x P : eff5 g g1 [] -> (Inv5 g -> goodmsg x) -> olist_np (Some x) = P ->
    hpost g wu P (Ok (g1, Some x)).
  Proof.
    intros [E E5] G T g' rep H. inversion H; subst g' rep. split.
    - intro I5. split; [exact (E5 I5)|]. intros y Y. inversion Y; subst y. exact (G I5).
    - intros _. exists []. split; [exact E|exact T].
  Qed.

  Lemma hpost_wake g wu P g1 : wu = true -> (Inv5 g -> Inv5 g1) -> hpost g wu P (Ok (g1, None)).
  Proof.
    intros -> E5 g' rep H. inversion H; subst g' rep.
    split; [intro I5; split; [exact (E5 I5)|discriminate]|discriminate].
  Qed.

  (* handle_stream alerts after the leaf handler *)
  Lemma hpost_then_alert g wu P r m : hpost g wu P r ->
    hpost g wu P (do x <- r; let '(g2, resp) := x in Ok (alert g2 m, resp)).
  Proof.
    intros H g1 rep. destruct r as [[g2 resp]|e]; cbn [bind]; [|discriminate].
    intro E. inversion E; subst g1 rep. destruct (H g2 resp eq_refl) as [H5 HT]. split.
    - intro I5. destruct (H5 I5) as [A B]. split; [apply Inv5_alert; exact A|exact B].
    - intro WU. destruct (HT WU) as (N & HE & EQ). exists N. split; [|exact EQ].
      exact (heff_trans_r g g2 _ N HE (heff_alert g2 m)).
  Qed.

  Section Handlers.
    Variables (g : gw) (m : msg).
    Hypotheses (C : cfgv v g) (I : Inv orc g) (M : goodmsg m).

    Lemma get_node_known n nd : get_node g n = Some nd -> known (vw g) n = true.
    Proof. intro G. rewrite <- (registered_view clock g n None). unfold registered. rewrite G. reflexivity. Qed.

    Lemma hpost_unknown wu : hpost g wu (unknown_reply v (m_node m)) (Ok (ask g (m_node m), None)).
    Proof. apply hpost_silent, eff5_ask; [exact C|exact I|apply vld_node_range, M]. Qed.

    (* the common frame of the handlers (cf. known_node_ok of C01): ask is_sensor, stop with the
       presentation request when the node (or child) is not registered, else fetch the node and go on *)
    Lemma known_node_hpost wu cid P (body : gw -> node -> res (gw * option msg)) :
      (forall nd, get_node g (m_node m) = Some nd -> (forall c, cid = Some c -> zhas c (n_children nd) = true) ->
                  hpost g wu P (body g nd)) ->
      hpost g wu (if match cid with
                     | None => known (vw g) (m_node m)
                     | Some c => known (vw g) (m_node m) && vw_child (vw g) (m_node m) c
                     end then P else unknown_reply v (m_node m))
        (do gr <- is_sensor g (m_node m) cid;
         let '(g1, known) := gr in
         if negb known then Ok (g1, None)
         else match get_node g1 (m_node m) with None => Raise KeyError | Some nd => body g1 nd end).
    Proof.
      intro H. rewrite (is_sensor_closed g _ _ (cfgv_facts v g C)), <- (registered_view clock).
      destruct (registered g (m_node m) cid) eqn:B; cbn [bind negb]; [|apply hpost_unknown].
      destruct (registered_get g _ _ B) as (nd & G & K). rewrite G. exact (H nd G K).
    Qed.

    Lemma handle_set_post wu : m_type m = 1 -> hpost g wu (prescribed v (vw g) m) (handle_set g m).
    Proof.
      intro Ty. destruct M as [W V]. unfold handle_set, prescribed.
      rewrite Ty. cbn [Z.eqb Pos.eqb]. apply (known_node_hpost wu (Some (m_child m))). intros nd G _.
      destruct (ucv_frame nd (m_child m) (m_sub m) (m_payload m)) as (E1 & E2 & E3 & E4).
      rewrite E3. cbn [vw_reboot view_of]. rewrite G.
      assert (E : eff5 g (alert (put_node g (update_child_value nd (m_child m) (m_sub m) (m_payload m))) m) []).
      { apply (eff5_put_alert g (m_node m) nd); try assumption.
        intro N5. apply ucv_node5; [exact N5|]. split; [exact W|]. rewrite vld_eta, Ty in V.
        exact (vld_ack _ _ _ _ 0 _ _ V (or_introl eq_refl)). }
      destruct (n_reboot nd); [|apply hpost_silent, E].
      unfold internal_member. rewrite (cfgv_tab v g C), k_reboot, k_internal. cbn [of_option bind].
      rewrite copy_spec by exact W. cbn [bind].
      apply hpost_reply; [exact E| |reflexivity]. intros _. apply good_reboot, vld_node_range, V.
    Qed.

    Lemma handle_req_post wu : m_type m = 2 -> hpost g wu (prescribed v (vw g) m) (handle_req g m).
    Proof.
      intro Ty. destruct M as [W V]. unfold handle_req, prescribed.
      rewrite Ty. cbn [Z.eqb Pos.eqb]. apply (known_node_hpost wu (Some (m_child m))). intros nd G K.
      rewrite <- (desired_value_view clock g _ nd _ (m_sub m) G (K _ eq_refl)).
      destruct (get_desired_value nd (m_child m) (m_sub m)) as [x|] eqn:DV; cbn [option_map];
        [|apply hpost_silent, eff5_refl].
      rewrite copy_spec by exact W. unfold override.
      cbn [bind ov r_node r_child r_type r_ack r_sub r_payload repl_type_payload].
      rewrite (cfgv_tab v g C), k_set.
      apply hpost_reply; [apply eff5_refl| |reflexivity].
      intro I5. destruct (desired5 g _ _ _ _ _ C I I5 G DV) as [WX VX]. split; [exact WX|].
      apply (vld_ack _ _ _ 0); [exact VX|]. rewrite vld_eta, vld_spec in V. tauto.
    Qed.

    Lemma handle_presentation_post wu : m_type m = 0 ->
      hpost g wu (prescribed v (vw g) m) (handle_presentation orc g m).
    Proof.
      intro Ty. pose proof (vld_node_range m (proj2 M)) as RN. unfold handle_presentation, prescribed.
      rewrite Ty, sys255. cbn [Z.eqb Pos.eqb]. destruct (m_child m =? 255).
      - destruct (get_node_add_sensor g (m_node m)) as [nd G]. rewrite G.
        apply hpost_reply; [|intros _; exact M|unfold olist_np; rewrite Ty; reflexivity].
        eapply eff5_trans_l; [apply eff5_add_sensor; intros _; exact RN|].
        apply (eff5_put_alert _ (m_node m) nd); try reflexivity; [apply Inv_add_sensor; exact I|exact G|].
        apply node5_same; reflexivity.
      - apply (known_node_hpost wu None). intros nd G _.
        destruct (zhas (m_child m) (n_children nd)); [apply hpost_silent, eff5_refl|].
        apply hpost_reply; [|intros _; exact M|unfold olist_np; rewrite Ty; reflexivity].
        apply (eff5_put_alert g (m_node m) nd); try reflexivity; [exact I|exact G|].
        intros (R & CH & NW & Q). split; [exact R|]. split; [|split; assumption].
        apply Forall_app. split; [exact CH|]. repeat constructor.
    Qed.

    Definition need_node : list msg := if known (vw g) (m_node m) then [] else unknown_reply v (m_node m).

    Lemma node_attr_post wu f :
      (forall nd p, n_id (f nd p) = n_id nd /\ n_children (f nd p) = n_children nd /\
                    n_new (f nd p) = n_new nd /\ n_queue (f nd p) = n_queue nd) ->
      hpost g wu need_node (node_attr_handler f g m).
    Proof.
      intro Hf. apply (known_node_hpost wu None). intros nd G _.
      destruct (Hf nd (m_payload m)) as (E1 & E2 & E3 & E4).
      apply hpost_silent, (eff5_put_alert g (m_node m) nd); try assumption.
      - unfold sleeping. rewrite E3. reflexivity.
      - apply node5_same; assumption.
    Qed.

    Lemma handle_id_request_post wu : m_type m = 3 ->
      hpost g wu (match spec_next_id (vw_ids (vw g)) with
                  | Some i => [mkMsg (m_node m) (m_child m) 3 0 4 (print i)]
                  | None => []
                  end) (handle_id_request g m).
    Proof.
      intro Ty. destruct M as [W V]. unfold handle_id_request. rewrite (next_id_view clock v g C).
      destruct (spec_next_id (vw_ids (vw g))) as [nid|] eqn:NX; [|apply hpost_silent, eff5_refl].
      assert (R : Inv5 g -> 1 <= nid <= 254).
      { intros (A & _). apply (spec_next_id_range (vw_ids (vw g))); [|exact NX]. cbn [vw_ids view_of].
        rewrite Forall_map. eapply Forall_impl; [|exact A]. intros kn (R & _). lia. }
      destruct (get_node_add_sensor g nid) as [nd G]. unfold zhas. unfold get_node in G. rewrite G. cbn [negb].
      unfold internal_member. rewrite (cfgv_tab v g C), k_id_response. cbn [of_option bind].
      rewrite copy_spec by exact W. unfold override. cbn [bind ov r_node r_child r_type r_ack r_sub r_payload]. rewrite Ty.
      apply hpost_reply; [| |reflexivity].
      - apply (eff5_trans_l g (add_sensor g nid)); [apply eff5_add_sensor; intro I5; specialize (R I5); lia|apply eff5_alert].
      - intro I5. apply good_id_response; [apply vld_node_range; exact V|exact (R I5)].
    Qed.

    (* 2.0 / 2.1 heartbeat response, 2.2 pre-sleep notification: for a known node the wake-up
       flush follows, of which only the invariant is shown here *)
    Lemma handle_heartbeat_post :
      hpost g (known (vw g) (m_node m)) need_node (handle_heartbeat_response orc g m).
    Proof.
      apply (known_node_hpost _ None). intros nd G _.
      destruct (handle_smartsleep_ok orc g (m_node m) nd I G) as (g2 & E2 & IG2 & C2 & nd2 & G2).
      rewrite E2. cbn [bind]. rewrite G2. apply hpost_wake; [exact (get_node_known _ _ G)|]. intro I5.
      apply (eff5_put_alert g2 (m_node m) nd2 (set_hb nd2 (m_payload m)) m); try reflexivity; try assumption.
      - apply node5_same; reflexivity.
      - apply (handle_smartsleep5 g (m_node m) nd); assumption.
    Qed.

    Lemma handle_pre_sleep_post :
      hpost g (known (vw g) (m_node m)) need_node (handle_pre_sleep orc g m).
    Proof.
      apply (known_node_hpost _ None). intros nd G _.
      destruct (handle_smartsleep_ok orc g (m_node m) nd I G) as (g2 & E2 & _).
      rewrite E2. cbn [bind]. apply hpost_wake; [exact (get_node_known _ _ G)|]. intro I5.
      apply (handle_smartsleep5 g (m_node m) nd); assumption.
    Qed.

    Lemma handle_internal_post : m_type m = 3 ->
      hpost g (wakes_up v (vw g) m) (prescribed v (vw g) m) (handle_internal orc clock g m).
    Proof.
      intro Ty. pose proof M as [W V]. pose proof (vld_node_range m V) as RN.
      assert (V3 : vld (mkMsg (m_node m) (m_child m) 3 (m_ack m) (m_sub m) (m_payload m)) = true)
        by (rewrite <- Ty, <- vld_eta; exact V).
      assert (B : between 0 (max_sub v 3) (m_sub m) = true) by (apply vld_spec in V3; tauto).
      pose proof (internal_child _ _ _ _ _ V3) as CH.
      pose proof (internal_resolution v _ B) as A.
      pose proof (action_sub v (m_sub m) _ eq_refl) as AS.
      unfold handle_internal, prescribed, wakes_up. rewrite (cfgv_tab v g C), Ty. cbn [Z.eqb Pos.eqb andb].
      fold need_node.
      destruct (sub_handler (tab_of v) 3 (m_sub m)) as [h|]; [destruct h|]; cbn [act_of] in A; try discriminate A;
        injection A as A; rewrite <- A in *; unfold run_leaf.
      - apply handle_id_request_post, Ty.
      - (* config *) unfold handle_config. rewrite copy_spec by exact W. unfold override.
        cbn [bind ov r_node r_child r_type r_ack r_sub r_payload]. rewrite Ty, AS.
        apply hpost_reply; [apply eff5_refl| |reflexivity]. intros _.
        rewrite CH by (rewrite AS; discriminate). apply good_config, RN.
      - (* time *) unfold handle_time. rewrite copy_spec by exact W. unfold override.
        cbn [bind ov r_node r_child r_type r_ack r_sub r_payload]. rewrite Ty, AS.
        apply hpost_reply; [apply eff5_refl| |reflexivity]. intros _.
        rewrite CH by (rewrite AS; discriminate). apply good_time, RN.
      - (* battery, sketch name, sketch version *) apply node_attr_post. intros; repeat split; reflexivity.
      - apply node_attr_post. intros; repeat split; reflexivity.
      - apply node_attr_post. intros; repeat split; reflexivity.
      - (* log *) apply hpost_silent, eff5_refl.
      - (* gateway ready < 2.0 *) apply hpost_silent, eff5_alert.
      - (* gateway ready >= 2.0 *) destruct AS as [AS GE]. unfold handle_gateway_ready_20, internal_member.
        rewrite (cfgv_tab v g C), k_discover by (rewrite ge20_eq; exact GE). cbn [of_option bind].
        rewrite copy_spec by exact W. unfold override. cbn [bind ov r_node r_child r_type r_ack r_sub r_payload]. rewrite Ty.
        apply hpost_reply; [apply eff5_alert| |reflexivity]. intros _.
        rewrite CH by (rewrite AS; discriminate). apply (good_discover GE).
      - (* heartbeat response 2.0 / 2.1 *) rewrite andb_true_r. apply handle_heartbeat_post.
      - (* discover response *) unfold handle_discover_response, need_node.
        rewrite (is_sensor_closed g _ _ (cfgv_facts v g C)), (registered_view clock).
        destruct (known (vw g) (m_node m)); cbn [bind fst]; [apply hpost_silent, eff5_refl|apply hpost_unknown].
      - (* heartbeat 2.2 *) apply node_attr_post. intros; repeat split; reflexivity.
      - (* pre-sleep *) rewrite andb_true_r. apply handle_pre_sleep_post.
      - (* no handler registered *) apply hpost_silent, eff5_refl.
    Qed.

    (* stream (OTA): closed up to the payload, which C09/C10 determine *)
    Lemma respond_fw_config_post wu : m_type m = 4 ->
      hpost g wu (match vw_fw_config (vw g) m with
                  | Some p => [mkMsg (m_node m) (m_child m) 4 (m_ack m) 1 p]
                  | None => []
                  end) (respond_fw_config g m).
    Proof.
      intro Ty. destruct M as [W V]. cbn [vw_fw_config view_of]. unfold respond_fw_config.
      destruct (fw_hex_to_int (m_payload m) 5); [|apply hpost_silent, eff5_refl].
      pose proof (ota_get_fw5 (g_ota g) (m_node m) true None) as F.
      destruct (ota_get_fw (g_ota g) (m_node m) true None) as [o' r]. cbn [fst snd] in F.
      assert (E : eff5 g (set_ota g o') []) by (apply eff5_set_ota; intro F0; apply (F F0)).
      destruct r as [[[t x] f]|]; [|apply hpost_silent, E].
      unfold stream_member. rewrite (cfgv_tab v g C), k_fw_config_response. cbn [of_option bind].
      rewrite copy_spec by exact W. cbn [bind].
      destruct (fw_config_payload t x f) as [p|e] eqn:P; cbn [bind]; [|apply hpost_raise].
      unfold set_payload, override. cbn [ov r_node r_child r_type r_ack r_sub r_payload m_node m_child m_type m_ack m_sub m_payload].
      rewrite Ty. apply hpost_reply; [exact E| |reflexivity]. intros _.
      unfold fw_config_payload in P. destruct (fw_int_to_hex_wire _ _ P) as (b & -> & B).
      split; [apply wire_ok_hexlify; exact B|].
      rewrite vld_eta, Ty in V. apply (vld_stream_response _ _ _ _ _ _ _ V). left. reflexivity.
    Qed.

    Lemma respond_fw_post wu : m_type m = 4 ->
      hpost g wu (match vw_fw_block (vw g) m with
                  | Some p => [mkMsg (m_node m) (m_child m) 4 (m_ack m) 3 p]
                  | None => []
                  end) (respond_fw g m).
    Proof.
      intro Ty. destruct M as [W V]. cbn [vw_fw_block view_of]. unfold respond_fw.
      destruct (fw_hex_to_int (m_payload m) 3) as [[|rt [|rv [|rb [|x0 y0]]]]|e]; try apply hpost_silent, eff5_refl.
      pose proof (ota_get_fw5 (g_ota g) (m_node m) false (Some (rt, rv))) as F.
      destruct (ota_get_fw (g_ota g) (m_node m) false (Some (rt, rv))) as [o' r]. cbn [fst snd] in F.
      assert (E : eff5 g (set_ota g o') []) by (apply eff5_set_ota; intro F0; apply (F F0)).
      destruct r as [[[t x] f]|]; [|apply hpost_silent, E].
      unfold stream_member. rewrite (cfgv_tab v g C), k_fw_response. cbn [of_option bind].
      rewrite copy_spec by exact W. cbn [bind].
      destruct (fw_response_payload t x rb f) as [p|e] eqn:P; cbn [bind]; [|apply hpost_raise].
      unfold set_payload, override. cbn [ov r_node r_child r_type r_ack r_sub r_payload m_node m_child m_type m_ack m_sub m_payload].
      rewrite Ty. apply hpost_reply; [exact E| |reflexivity]. intros I5.
      unfold fw_response_payload in P.
      destruct (fw_int_to_hex [t; x; rb]) as [h|e] eqn:HX; cbn [bind] in P; [|discriminate].
      inversion P; subst p. destruct (fw_int_to_hex_wire _ _ HX) as (b & -> & B).
      split.
      - cbn [m_payload]. rewrite <- hexlify_app. apply wire_ok_hexlify. rewrite bytes_ok_app, B.
        apply fw_block_bytes. exact (proj2 (F (Inv5_fw g I5)) t x f eq_refl).
      - rewrite vld_eta, Ty in V. apply (vld_stream_response _ _ _ _ _ _ _ V). right. reflexivity.
    Qed.

    Lemma handle_stream_post wu : m_type m = 4 -> hpost g wu (prescribed v (vw g) m) (handle_stream orc clock g m).
    Proof.
      intro Ty. unfold handle_stream, prescribed.
      rewrite Ty, (is_sensor_closed g _ _ (cfgv_facts v g C)), (registered_view clock). cbn [Z.eqb Pos.eqb].
      destruct (known (vw g) (m_node m)) eqn:B; cbn [bind negb]; [|apply hpost_unknown].
      assert (RS : between 0 (max_sub v 4) (m_sub m) = true).
      { destruct M as [_ V]. rewrite vld_eta, vld_spec, Ty in V. tauto. }
      rewrite (cfgv_tab v g C), (stream_resolution v _ RS). unfold stream_expected.
      destruct (m_sub m =? 0); [|destruct (m_sub m =? 2); [|apply hpost_silent, eff5_refl]]; unfold run_leaf;
        apply hpost_then_alert; [apply respond_fw_config_post|apply respond_fw_post]; exact Ty.
    Qed.

    Lemma run_handler_post h : type_handler (tab_of v) (m_type m) = Some h ->
      hpost g (wakes_up v (vw g) m) (prescribed v (vw g) m) (run_handler orc clock h g m) /\
      hres_ok orc g (run_handler orc clock h g m).
    Proof.
      pose proof M as [W V]. pose proof V as RT. rewrite vld_eta, vld_spec in RT. destruct RT as (_ & _ & RT & _).
      pose proof (facts_of_cfg g (cfgv_cfg v g C)) as F. rewrite <- (cfgv_tab v g C).
      intro TH. split; [|exact (run_handler_ok orc clock g m h F I W RT TH)]. revert TH.
      destruct (type_handler_cases g (m_type m) F RT) as [[E T]|[[E T]|[[E T]|[[E T]|[E T]]]]]; rewrite T;
        intro TH; inversion TH; subst h; unfold run_handler.
      - apply handle_presentation_post, E.
      - apply handle_set_post, E.
      - apply handle_req_post, E.
      - apply handle_internal_post, E.
      - apply handle_stream_post, E.
    Qed.
  End Handlers.

  (* one call on an accepted line: the result of the selected handler, then routing of its reply *)
  Lemma logic_hpost g l m g' r : cfgv v g -> Inv orc g -> decode l = Some m -> vld m = true ->
    logic orc clock g l = Ok (g', r) ->
    exists g1 rep routed,
      hpost g (wakes_up v (vw g) m) (prescribed v (vw g) m) (Ok (g1, rep)) /\
      Inv orc g1 /\ g_cf g1 = g_cf g /\ route_opt g1 rep = (g', routed) /\ r = option_map encode routed.
  Proof.
    intros C I D V. unfold logic. rewrite D, (gvalidate_vld g m C), V, (cfgv_tab v g C). cbn [negb].
    pose proof (decoded_payload_wire_ok _ _ D) as W.
    destruct (type_handler (tab_of v) (m_type m)) as [h|] eqn:TH; [|discriminate].
    destruct (run_handler_post g m C I (conj W V) h TH) as [HP (g1 & rep & E & I1 & C1)].
    rewrite E in HP |- *. cbn [bind]. destruct (route_opt g1 rep) as [g2 routed] eqn:RO.
    intro H. inversion H; subst g' r. exists g1, rep, routed.
    exact (conj HP (conj I1 (conj C1 (conj RO eq_refl)))).
  Qed.

  Theorem logic5 g l g' r : cfgv v g -> Inv orc g -> Inv5 g -> logic orc clock g l = Ok (g', r) ->
    Inv5 g' /\ forall s, r = Some s -> good s.
  Proof.
    intros C I I5 L.
    assert (REJ : logic orc clock g l = Ok (g, None) -> Inv5 g' /\ forall s, r = Some s -> good s).
    { rewrite L. intro H. inversion H; subst g' r. split; [exact I5|discriminate]. }
    destruct (decode l) as [m|] eqn:D; [|apply REJ, rejected_is_noop; left; exact D].
    destruct (vld m) eqn:V;
      [|apply REJ, rejected_is_noop; right; exists m; rewrite (gvalidate_vld g m C); split; assumption].
    destruct (logic_hpost g l m g' r C I D V L) as (g1 & rep & routed & HP & I1 & C1 & RO & ->).
    destruct (proj1 (HP g1 rep eq_refl) I5) as [I51 GR].
    destruct rep as [x|]; cbn [route_opt] in RO; [|inversion RO; subst g' routed; split; [exact I51|discriminate]].
    rewrite (route_closed v g1 x (cfgv_ext v g g1 C1 C)) in RO.
    destruct (m_type x =? 0); [inversion RO; subst g' routed; split; [exact I51|discriminate]|].
    destruct (withheld (vsleep g1) x); inversion RO; subst g' routed.
    - split; [apply Inv5_enqueue; auto|discriminate].
    - split; [exact I51|]. intros s E. inversion E; subst s. exists x. split; [reflexivity|apply GR; reflexivity].
  Qed.

  (* both task flavours run the dispatcher and send its reply *)
  Lemma logic_send5 g l : cfgv v g -> Inv orc g -> Inv5 g ->
    Inv5 (match logic orc clock g l with
          | Ok (g1, Some r) => send g1 r
          | Ok (g1, None) => g1
          | Raise e => emit g (ERaise e)
          end).
  Proof.
    intros C I I5. destruct (logic orc clock g l) as [[g1 r]|e] eqn:L; [|apply Inv5_emit; [exact I5|exact Logic.I]].
    destruct (logic5 g l g1 r C I I5 L) as [A B].
    destruct r as [r|]; [apply Inv5_send; [exact A|apply B; reflexivity]|exact A].
  Qed.

  Lemma recv5 g l : cfgv v g -> Inv orc g -> Inv5 g -> Inv5 (recv orc clock g l).
  Proof.
    intros C I I5. unfold recv. destruct (cf_async (g_cf g)); [apply logic_send5; assumption|].
    apply Inv5_set_jobs; [exact I5|]. apply Forall_app. split; [exact (Inv5_jobs g I5)|].
    constructor; [exact Logic.I|constructor].
  Qed.

  Lemma pump5 g : cfgv v g -> Inv orc g -> Inv5 g -> Inv5 (pump orc clock g).
  Proof.
    intros C I I5. unfold pump. pose proof (Inv5_jobs g I5) as J.
    destruct (g_jobs g) as [|[l|l] r]; [exact I5| |]; inversion J as [|? ? GL JR]; subst.
    - apply logic_send5; [exact C|apply Inv_set_jobs; exact I|apply Inv5_set_jobs; assumption].
    - apply Inv5_send; [|exact GL]. apply Inv5_set_jobs; assumption.
  Qed.

  Definition carriable (x : pyval) : Prop := wire_ok (py_str x) = true.

  Lemma set_child_value5 g sid cid vt x mt a : cfgv v g -> Inv orc g -> Inv5 g -> carriable x ->
    forall g', set_child_value orc g sid cid vt x mt a = Ok g' -> Inv5 g'.
  Proof.
    intros C I I5 CX g'. unfold set_child_value.
    rewrite (is_sensor_closed g _ _ (cfgv_facts v g C)).
    destruct (registered g sid (Some cid)) eqn:B; cbn [bind negb];
      [|intro H; inversion H; subst g'; apply Inv5_ask; assumption].
    destruct (registered_get g _ _ B) as (nd & G & _). rewrite G.
    pose proof (get_node_ok orc g _ _ I G) as [K _]. simpl in K.
    destruct (sleeping nd).
    - destruct (create_set_message orc g (n_id nd) cid vt x None None) as [m0|e]; cbn [bind]; [|discriminate].
      destruct (zassoc cid (n_new nd)) as [dv|] eqn:D; [|discriminate].
      destruct (validate_child_state orc nd cid vt x); cbn [bind]; [|discriminate].
      destruct (vt_int vt) as [vti|]; [|discriminate].
      intro H. inversion H; subst g'. apply Inv5_put_node; [exact I5|].
      change (n_id (with_new nd (zset cid (zset vti (Some x) dv) (n_new nd)))) with (n_id nd). rewrite K.
      destruct (get_node_node5 g _ _ I5 G) as (RR & CH & NW & Q). simpl in RR, CH, NW, Q.
      split; [exact RR|]. split; [exact CH|]. split; [|exact Q]. simpl.
      apply Forall_zset; [exact NW|]. simpl. apply Forall_zset; [|exact CX].
      pose proof (zassoc_Forall _ _ _ _ NW D) as X. exact X.
    - destruct (create_set_message orc g (n_id nd) cid vt x mt a) as [m0|e] eqn:CM; cbn [bind]; [|discriminate].
      intro H. inversion H; subst g'. apply Inv5_add_job; [exact I5|].
      destruct (create_set_message_ok _ _ _ _ _ _ _ _ _ CM) as (vti & _ & -> & GV).
      eexists. split; [reflexivity|]. split; [exact CX|]. rewrite <- (gvalidate_vld g _ C). exact GV.
  Qed.

  Lemma fw_store5 t x f l : Forall (fun e : (Z * Z) * fware => bytes_ok (fw_data (snd e)) = true) l ->
    bytes_ok (fw_data f) = true ->
    Forall (fun e : (Z * Z) * fware => bytes_ok (fw_data (snd e)) = true) (fw_store t x f l).
  Proof.
    intros F B. induction l as [|[[t' x'] f'] l IH]; simpl; [constructor; [exact B|constructor]|].
    inversion F; subst. destruct (Z.eqb t t' && Z.eqb x x'); constructor; try assumption. apply IH. assumption.
  Qed.

  Lemma update_one5 t x g nid : keyed g /\ Inv5 g -> keyed (update_one t x g nid) /\ Inv5 (update_one t x g nid).
  Proof.
    intros [KS I5]. split; [apply keyed_update_one, KS|].
    unfold update_one. destruct (get_node g nid) as [nd|] eqn:G; [|exact I5].
    apply Inv5_put_node.
    - destruct I5 as (A & B & C & D). repeat split; assumption.
    - change (n_id (with_reboot nd true)) with (n_id nd). rewrite (keyed_get g nid nd KS G).
      apply (node5_same nid nd); try reflexivity. apply (get_node_node5 g); assumption.
  Qed.

  Lemma update_fw5 g nids fwt fwv bin : Inv orc g -> Inv5 g -> image_ok bin ->
    forall g', update_fw g nids fwt fwv bin = Ok g' -> Inv5 g'.
  Proof.
    intros I I5 IM g' H. destruct (update_fw_closed _ _ _ _ _ _ H) as [->|(t & x & fwl & _ & FW & G)]; [exact I5|].
    assert (I0 : Inv5 (set_ota g (mkOta fwl (o_requested (g_ota g)) (o_unstarted (g_ota g)) (o_started (g_ota g))))).
    { apply Inv5_set_ota; [exact I5|]. pose proof (Inv5_fw g I5) as F.
      destruct FW as [->|(b & -> & ->)]; [exact F|]. apply fw_store5; [exact F|]. apply prepare_fw_bytes, IM. }
    destruct G as [->| ->]; [exact I0|].
    apply (fold_left_preserves _ (fun g => keyed g /\ Inv5 g) (update_one5 t x)). split; [apply (Inv_keyed orc g I)|exact I0].
  Qed.

  (* controller calls of a history: values the wire format can carry; firmware images as in C01.
     The node id given to set_child_value is ARBITRARY: is_sensor asks only a node id in 0..255 to
     present itself. *)
  Definition op_wire (o : op) : Prop :=
    match o with
    | SetChild _ _ _ x _ _ => carriable x
    | UpdateFw _ _ _ bin => image_ok bin
    | _ => True
    end.

  Lemma op_wire_ok o : op_wire o -> op_ok o.
  Proof. destruct o; simpl; tauto. Qed.

  Lemma step5 g o : cfgv v g -> Inv orc g -> Inv5 g -> op_wire o -> Inv5 (step orc clock g o).
  Proof.
    intros C I I5 O. destruct o as [l| |s c vt x mt a|ns t x b|b]; simpl.
    - apply recv5; assumption.
    - apply pump5; assumption.
    - destruct (set_child_value orc g s c vt x mt a) as [g'|e] eqn:E; [|apply Inv5_emit; [exact I5|exact Logic.I]].
      apply (set_child_value5 g s c vt x mt a C I I5 O g' E).
    - destruct (update_fw g ns t x b) as [g'|e] eqn:E; [|apply Inv5_emit; [exact I5|exact Logic.I]].
      apply (update_fw5 g ns t x b I I5 O g' E).
    - destruct I5 as (A & B & C5 & D). repeat split; assumption.
  Qed.

  Lemma run5 ops g : cfgv v g -> Inv orc g -> Inv5 g -> Forall op_wire ops ->
    Inv5 (run orc clock g ops) /\ Inv orc (run orc clock g ops) /\ cfgv v (run orc clock g ops).
  Proof.
    revert g. induction ops as [|o ops IH]; intros g C I I5 F; [split; [exact I5|split; [exact I|exact C]]|].
    inversion F; subst. unfold run. simpl.
    destruct (step_ok orc clock g o (cfgv_cfg v g C) I (op_wire_ok o H1)) as [I1 C1].
    apply IH; [apply (cfgv_ext v g); assumption|exact I1|apply step5; assumption|assumption].
  Qed.
End Inv5.

(* what the property promises of a command string *)
Definition line_ok (orc : oracles) (g : gw) (l : pstr) : Prop :=
  canonical l /\
  exists m, decode l = Some m /\ encode m = l /\ gvalidate orc g m = true /\ 0 <= m_node m <= 255.

Lemma good_line_ok orc v g l : cfgv v g -> good orc v l -> line_ok orc g l.
Proof.
  intros C (x & -> & W & V). split; [exists x; split; [exact W|reflexivity]|].
  exists x. split; [apply decode_encode; exact W|]. split; [reflexivity|].
  split; [rewrite (gvalidate_vld orc v g x C); exact V|]. apply (vld_node_range orc v x V).
Qed.

(* the strings of any state with Inv5, read as the property reads them *)
Lemma Inv5_lines orc v g : cfgv v g -> Inv5 orc v g ->
  (forall l, In (ESend l) (g_log g) -> line_ok orc g l) /\
  (forall l, In (JSend l) (g_jobs g) -> line_ok orc g l) /\
  (forall k nd l, get_node g k = Some nd -> In l (n_queue nd) ->
     line_ok orc g l /\ exists m, decode l = Some m /\ m_node m = k).
Proof.
  intros CV (A & B & C & _). split; [|split].
  - intros l H. rewrite Forall_forall in C. apply (good_line_ok orc v); [exact CV|exact (C _ H)].
  - intros l H. rewrite Forall_forall in B. apply (good_line_ok orc v); [exact CV|exact (B _ H)].
  - intros k nd l GN H. pose proof (zassoc_Forall _ _ _ _ A GN) as (_ & _ & _ & Q). simpl in Q.
    rewrite Forall_forall in Q. specialize (Q _ H).
    split; [apply (good_line_ok orc v); [exact CV|apply (good_to_good orc v k); exact Q]|].
    destruct Q as (x & -> & [W _] & K). exists x. split; [apply decode_encode; exact W|exact K].
Qed.

Theorem reachable_Inv5 orc clock v cf ops :
  cf_tab cf = tab_of v -> cf_ge20 cf = ge20 v -> Forall op_wire ops ->
  let g := run orc clock (gw_init cf) ops in Inv5 orc v g /\ Inv orc g /\ cfgv v g.
Proof.
  intros T G F. apply (run5 orc clock v ops (gw_init cf)); [split; assumption|apply Inv_init|apply Inv5_init|exact F].
Qed.

Theorem emitted_canonical_valid orc clock cf ops :
  cfg_ok cf -> Forall op_wire ops ->
  let g := run orc clock (gw_init cf) ops in
  (forall l, In (ESend l) (g_log g) -> line_ok orc g l) /\
  (forall l, In (JSend l) (g_jobs g) -> line_ok orc g l) /\
  (forall k nd l, get_node g k = Some nd -> In l (n_queue nd) ->
     line_ok orc g l /\ exists m, decode l = Some m /\ m_node m = k).
Proof.
  intros [v [T G]] F g. destruct (reachable_Inv5 orc clock v cf ops T G F) as (I5 & _ & CV).
  exact (Inv5_lines orc v g CV I5).
Qed.
