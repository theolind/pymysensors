(* The liveness probe of C01; the invariant and the totality of the dispatcher are in GwInv.v. *)
From Coq Require Import List NArith ZArith Bool String Lia.
From PMS Require Import Base.PyStr Base.PyInt Base.Exn Model.Codec Model.Rules Model.TableTypes
  Gen.Tables Model.Validate Model.Oracles Model.Gateway Spec.SerialApi
  Proofs.CodecProofs Proofs.ValidateProofs Proofs.GwLemmas Proofs.GwInv.
Import ListNotations.
Open Scope string_scope.
Open Scope list_scope.
Open Scope Z_scope.

(* the liveness probe: a config request from node 200 *)
Definition probe : pstr := s2p "200;255;3;0;6;0".
Definition probe_msg : msg := mkMsg 200 255 3 0 6 (s2p "0").
Definition probe_reply (metric : bool) : pstr := s2p (if metric then "200;255;3;0;6;M" else "200;255;3;0;6;I") ++ [nl].

Lemma decode_probe : decode probe = Some probe_msg.
Proof. vm_compute. reflexivity. Qed.

Section Probe.
  Variable orc : oracles.
  Variable clock : Z.

  Lemma probe_valid v : validate (orc_version orc) (orc_float orc) (tab_of v) probe_msg = true.
  Proof. destruct v; vm_compute; reflexivity. Qed.

  Lemma probe_handlers v :
    type_handler (tab_of v) 3 = Some HInternal /\ sub_handler (tab_of v) 3 6 = Some HConfig /\
    vt_presentation (tab_of v) = 0.
  Proof.
    rewrite type_handler_resolved, sub_handler_resolved, k_presentation. destruct v; repeat split; reflexivity.
  Qed.

  Theorem liveness_probe g : cfg_ok (g_cf g) -> get_node g 200 = None ->
    logic orc clock g probe = Ok (g, Some (probe_reply (g_metric g))).
  Proof.
    intros [v [T _]] G. unfold logic. rewrite decode_probe.
    unfold gvalidate, tab. rewrite T. rewrite probe_valid. cbn [negb].
    destruct (probe_handlers v) as (TH & SH & PR).
    change (m_type probe_msg) with 3. rewrite TH. unfold run_handler, handle_internal.
    unfold tab. rewrite T. change (m_type probe_msg) with 3. change (m_sub probe_msg) with 6. rewrite SH.
    unfold run_leaf, handle_config.
    rewrite copy_spec by (vm_compute; reflexivity). cbn [bind].
    unfold route_opt, route, tab. rewrite T, PR.
    change (m_type (override probe_msg _)) with 3. change (3 =? 0) with false. cbv iota.
    change (m_node (override probe_msg _)) with 200. rewrite G.
    destruct (g_metric g); vm_compute; reflexivity.
  Qed.
End Probe.
