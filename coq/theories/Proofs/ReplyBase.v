(* C05 groundwork: observations of one dispatcher call, the view of the state the reply table
   reads, per-version finite facts about the generated tables/registry, the closed form of
   Gateway._route_message (that of Gateway.is_sensor is GwInv.is_sensor_closed), and the algebra of handler effects. *)
From Coq Require Import List NArith ZArith Bool String Lia.
From PMS Require Import Base.PyStr Base.PyInt Base.Exn Model.Codec Model.Rules Model.TableTypes
  Gen.Tables Model.Validate Model.Hex Model.Ota Model.Oracles Model.Gateway Spec.SerialApi Spec.ReplyTable
  Proofs.PyStrFacts Proofs.PyIntFacts Proofs.CodecProofs Proofs.ValidateProofs Proofs.GwLemmas Proofs.GwInv.
Import ListNotations.
Open Scope string_scope.
Open Scope list_scope.
Open Scope Z_scope.

Fixpoint sends (l : list event) : list pstr :=
  match l with
  | [] => []
  | ESend s :: r => s :: sends r
  | _ :: r => sends r
  end.

Lemma sends_app a b : sends (a ++ b) = sends a ++ sends b.
Proof. induction a as [|[s|m t|e] a IH]; simpl; [reflexivity|rewrite IH; reflexivity|exact IH|exact IH]. Qed.

Definition olist {A} (o : option A) : list A := match o with Some x => [x] | None => [] end.

Definition queue_of (g : gw) (k : Z) : list pstr :=
  match get_node g k with Some nd => n_queue nd | None => [] end.
Definition vsleep (g : gw) (k : Z) : bool :=
  match get_node g k with Some nd => sleeping nd | None => false end.

(* the view of the state that the reply table reads *)
Definition view_of (clock : Z) (g : gw) : view :=
  mkView (map fst (g_sensors g))
    (fun n c => match get_node g n with Some nd => zhas c (n_children nd) | None => false end)
    (vsleep g)
    (fun n c s => match get_node g n with
                  | Some nd => match zassoc c (n_new nd) with
                               | Some dv => match zassoc s dv with Some (Some v) => Some (py_str v) | _ => None end
                               | None => None
                               end
                  | None => None
                  end)
    (fun n c s => match get_node g n with
                  | Some nd => match zassoc c (n_children nd) with
                               | Some ch => option_map py_str (zassoc s (c_values ch))
                               | None => None
                               end
                  | None => None
                  end)
    (fun n => match get_node g n with Some nd => n_reboot nd | None => false end)
    (g_metric g) clock
    (fun m => match respond_fw_config g m with Ok (_, Some r) => Some (m_payload r) | _ => None end)
    (fun m => match respond_fw g m with Ok (_, Some r) => Some (m_payload r) | _ => None end).

Lemma known_view clock g n : known (view_of clock g) n = zhas n (g_sensors g).
Proof.
  unfold known, view_of, zhas. simpl. induction (g_sensors g) as [|[k a] l IH]; simpl; [reflexivity|].
  destruct (Z.eqb n k); [reflexivity|exact IH].
Qed.

Definition cfgv (v : ver) (g : gw) : Prop := cf_tab (g_cf g) = tab_of v /\ cf_ge20 (g_cf g) = ge20 v.

Lemma cfgv_tab v g : cfgv v g -> tab g = tab_of v.
Proof. intros [T _]. exact T. Qed.
Lemma cfgv_cfg v g : cfgv v g -> cfg_ok (g_cf g).
Proof. intros [T G]. exists v. split; assumption. Qed.
Lemma cfgv_facts v g : cfgv v g -> facts g.
Proof. intro C. apply facts_of_cfg, (cfgv_cfg v), C. Qed.
Lemma cfgv_ext v g g' : g_cf g' = g_cf g -> cfgv v g -> cfgv v g'.
Proof. unfold cfgv. intros ->. tauto. Qed.

Lemma ge20_eq v : ge20 v = v_ge20 v.
Proof. destruct v; reflexivity. Qed.

Lemma sys255 : system_child_id = 255.
Proof. reflexivity. Qed.

Lemma k_req v : vt_req (tab_of v) = 2. Proof. destruct v; vm_compute; reflexivity. Qed.
Lemma k_reboot v : sassoc (s2p "I_REBOOT") (vt_internal_members (tab_of v)) = Some 13.
Proof. destruct v; vm_compute; reflexivity. Qed.
Lemma k_id_response v : sassoc (s2p "I_ID_RESPONSE") (vt_internal_members (tab_of v)) = Some 4.
Proof. destruct v; vm_compute; reflexivity. Qed.
Lemma k_discover v : ge20 v = true ->
  sassoc (s2p "I_DISCOVER") (vt_internal_members (tab_of v)) = Some 20.
Proof. destruct v; intro H; try discriminate H; vm_compute; reflexivity. Qed.
Lemma k_fw_config_response v :
  sassoc (s2p "ST_FIRMWARE_CONFIG_RESPONSE") (vt_stream_members (tab_of v)) = Some 1.
Proof. destruct v; vm_compute; reflexivity. Qed.
Lemma k_fw_response v : sassoc (s2p "ST_FIRMWARE_RESPONSE") (vt_stream_members (tab_of v)) = Some 3.
Proof. destruct v; vm_compute; reflexivity. Qed.

(* what each handler function of handler.py does, in the words of the reply table; the walk
   over the handlers in ReplyInv.v justifies every line.  None: a function that must not be
   registered for an internal sub-type. *)
Definition act_of (o : option hfun) : option action :=
  match o with
  | None | Some HLog | Some HGatewayReady => Some Silent
  | Some HBattery | Some HSketchName | Some HSketchVersion | Some HHeartbeat22
  | Some HDiscoverResponse => Some NodeGuard
  | Some HTime => Some Time
  | Some HConfig => Some Config
  | Some HIdRequest => Some IdRequest
  | Some HGatewayReady20 => Some Discover
  | Some HHeartbeat | Some HPreSleep => Some WakeUp
  | Some _ => None
  end.

Lemma map_eq_In {A B} (f g : A -> B) l x : map f l = map g l -> In x l -> f x = g x.
Proof.
  induction l as [|a l IH]; simpl; intros E H; [contradiction|].
  inversion E. destruct H as [H|H]; [subst; assumption|auto].
Qed.

(* the handler resolution of the generated registry against the hand-written table *)
Lemma internal_resolution v s : between 0 (max_sub v 3) s = true ->
  act_of (sub_handler (tab_of v) 3 s) = Some (internal_action v s).
Proof.
  intro B. rewrite sub_handler_resolved.
  apply (map_eq_In (fun s => act_of (sub_lookup (resolved v) 3 s)) (fun s => Some (internal_action v s))
                   (zrange (max_sub v 3))).
  - destruct v; vm_compute; reflexivity.
  - apply In_zrange. unfold between in B. lia.
Qed.

Definition stream_expected (s : Z) : option hfun :=
  if s =? 0 then Some HFwConfigReq else if s =? 2 then Some HFwReq else None.

Lemma stream_resolution v s : between 0 (max_sub v 4) s = true ->
  sub_handler (tab_of v) 4 s = stream_expected s.
Proof.
  intro B. rewrite sub_handler_resolved.
  apply (map_eq_In (sub_lookup (resolved v) 4) stream_expected (zrange (max_sub v 4))).
  - destruct v; vm_compute; reflexivity.
  - apply In_zrange. unfold between in B. lia.
Qed.

Lemma send_encode g m : send g (encode m) = emit g (ESend (encode m)).
Proof. unfold send. pose proof (encode_nonnil m). destruct (encode m); [contradiction|reflexivity]. Qed.

Lemma sleeping_slot_set nd c dv dv' : zassoc c (n_new nd) = Some dv ->
  sleeping (with_new nd (zset c dv' (n_new nd))) = sleeping nd.
Proof.
  intro E. unfold sleeping. simpl. pose proof (zset_nonnil c dv' (n_new nd)) as NZ.
  destruct (zset c dv' (n_new nd)); [contradiction|]. destruct (n_new nd); [discriminate E|reflexivity].
Qed.

Lemma ucv_frame nd c vt p :
  n_id (update_child_value nd c vt p) = n_id nd /\ n_queue (update_child_value nd c vt p) = n_queue nd /\
  n_reboot (update_child_value nd c vt p) = n_reboot nd /\ sleeping (update_child_value nd c vt p) = sleeping nd.
Proof.
  unfold update_child_value. destruct (zassoc c (n_children nd)); [|repeat split; reflexivity].
  destruct (zassoc c (n_new nd)) as [dv|] eqn:E; repeat split; try reflexivity.
  apply (sleeping_slot_set (with_children nd _) c dv). exact E.
Qed.

(* Gateway.create_message_to_set_sensor_value, when it returns *)
Lemma create_set_message_ok orc g nid cid vt x mt a m0 : create_set_message orc g nid cid vt x mt a = Ok m0 ->
  exists vti, vt_int vt = Some vti /\ m0 = mkMsg nid cid (ov mt (vt_set (tab g))) (ov a 0) vti (py_str x) /\
              gvalidate orc g m0 = true.
Proof.
  unfold create_set_message. destruct (vt_int vt) as [vti|]; [|discriminate].
  set (mm := mkMsg _ _ _ _ _ _). destruct (gvalidate orc g mm) eqn:GV; intro H; inversion H; subst m0.
  exists vti. split; [reflexivity|]. split; [reflexivity|exact GV].
Qed.

Definition enqueue (g : gw) (x : msg) : gw :=
  match get_node g (m_node x) with
  | Some nd => put_node g (with_queue nd (n_queue nd ++ [encode x]))
  | None => g
  end.

(* outputs of a piece of a dispatcher call: the command strings handed to tasks.add_job *)
Definition outs (g g' : gw) (ns : list pstr) : Prop :=
  if cf_async (g_cf g)
  then sends (g_log g') = sends (g_log g) ++ ns /\ g_jobs g' = g_jobs g
  else sends (g_log g') = sends (g_log g) /\ g_jobs g' = g_jobs g ++ map JSend ns.

(* g' arises from g by emitting / withholding exactly the commands N (in this order) and
   by changes that routing does not see *)
Definition heff (g g' : gw) (N : list msg) : Prop :=
  g_cf g' = g_cf g /\
  (forall k, vsleep g' k = vsleep g k) /\
  outs g g' (emitted_part (vsleep g) N) /\
  (forall k, queue_of g' k = queue_of g k ++ withheld_part (vsleep g) k N).

Lemma withheld_ext (s1 s2 : Z -> bool) x : (forall k, s1 k = s2 k) -> withheld s1 x = withheld s2 x.
Proof. intro E. unfold withheld. rewrite E. reflexivity. Qed.
Lemma emitted_ext (s1 s2 : Z -> bool) N : (forall k, s1 k = s2 k) -> emitted_part s1 N = emitted_part s2 N.
Proof.
  intro E. unfold emitted_part. f_equal. apply filter_ext. intro x. rewrite (withheld_ext s1 s2 x E). reflexivity.
Qed.
Lemma withheld_part_ext (s1 s2 : Z -> bool) k N : (forall k, s1 k = s2 k) -> withheld_part s1 k N = withheld_part s2 k N.
Proof.
  intro E. unfold withheld_part. f_equal. apply filter_ext. intro x. rewrite (withheld_ext s1 s2 x E). reflexivity.
Qed.
Lemma emitted_app sl a b : emitted_part sl (a ++ b) = emitted_part sl a ++ emitted_part sl b.
Proof. unfold emitted_part. rewrite filter_app, map_app. reflexivity. Qed.
Lemma withheld_part_app sl k a b : withheld_part sl k (a ++ b) = withheld_part sl k a ++ withheld_part sl k b.
Proof. unfold withheld_part. rewrite filter_app, map_app. reflexivity. Qed.

Lemma heff_trans g g1 g2 N1 N2 : heff g g1 N1 -> heff g1 g2 N2 -> heff g g2 (N1 ++ N2).
Proof.
  intros (C1 & S1 & O1 & Q1) (C2 & S2 & O2 & Q2).
  split; [congruence|]. split; [intro k; rewrite S2; apply S1|]. split.
  - unfold outs in *. rewrite C1 in O2. rewrite emitted_app.
    rewrite (emitted_ext (vsleep g1) (vsleep g) N2 S1) in O2.
    destruct (cf_async (g_cf g)).
    + destruct O1 as [A1 B1], O2 as [A2 B2]. split; [|congruence].
      rewrite A2, A1, app_assoc. reflexivity.
    + destruct O1 as [A1 B1], O2 as [A2 B2]. split; [congruence|].
      rewrite B2, B1, map_app, app_assoc. reflexivity.
  - intro k. rewrite Q2, Q1, withheld_part_app, (withheld_part_ext (vsleep g1) (vsleep g) k N2 S1), app_assoc.
    reflexivity.
Qed.

Lemma heff_trans_l g g1 g2 N : heff g g1 [] -> heff g1 g2 N -> heff g g2 N.
Proof. intros A B. exact (heff_trans g g1 g2 [] N A B). Qed.
Lemma heff_trans_r g g1 g2 N : heff g g1 N -> heff g1 g2 [] -> heff g g2 N.
Proof. intros A B. pose proof (heff_trans g g1 g2 N [] A B) as H. rewrite app_nil_r in H. exact H. Qed.

Lemma heff_silent g g' :
  g_cf g' = g_cf g -> g_jobs g' = g_jobs g -> sends (g_log g') = sends (g_log g) ->
  (forall k, vsleep g' k = vsleep g k) -> (forall k, queue_of g' k = queue_of g k) -> heff g g' [].
Proof.
  intros C J L S Q. split; [exact C|]. split; [exact S|]. split.
  - unfold outs. destruct (cf_async (g_cf g)); simpl; rewrite app_nil_r; split; assumption.
  - intro k. simpl. rewrite app_nil_r. apply Q.
Qed.

Lemma heff_refl g : heff g g [].
Proof. apply heff_silent; reflexivity. Qed.

Lemma heff_alert g m : heff g (alert g m) [].
Proof.
  apply heff_silent; unfold alert;
    destruct (cf_callback (g_cf g)), (cf_persist (g_cf g)); simpl; try reflexivity;
    try (rewrite sends_app; simpl; rewrite app_nil_r; reflexivity).
Qed.

Lemma heff_set_ota g o : heff g (set_ota g o) [].
Proof. apply heff_silent; reflexivity. Qed.

Lemma heff_put_node g nd nd' :
  get_node g (n_id nd') = Some nd -> n_queue nd' = n_queue nd -> sleeping nd' = sleeping nd ->
  heff g (put_node g nd') [].
Proof.
  intros G Q S. apply heff_silent; try reflexivity.
  - intro k. unfold vsleep. rewrite get_node_put. destruct (Z.eqb_spec k (n_id nd')) as [->|N]; [|reflexivity].
    rewrite G. exact S.
  - intro k. unfold queue_of. rewrite get_node_put. destruct (Z.eqb_spec k (n_id nd')) as [->|N]; [|reflexivity].
    rewrite G. exact Q.
Qed.

Lemma get_node_add_sensor_other g sid k :
  get_node (add_sensor g sid) k =
  match get_node g k with
  | Some nd => Some nd
  | None => if Z.eqb k sid then Some (new_node sid) else None
  end.
Proof.
  unfold add_sensor. destruct (zhas sid (g_sensors g)) eqn:H.
  - destruct (get_node g k) eqn:G; [reflexivity|].
    destruct (Z.eqb_spec k sid) as [->|N]; [|reflexivity].
    unfold zhas in H. unfold get_node in G. rewrite G in H. discriminate.
  - unfold get_node. simpl. rewrite zassoc_app. destruct (zassoc k (g_sensors g)); [reflexivity|].
    simpl. reflexivity.
Qed.

Lemma heff_add_sensor g sid : heff g (add_sensor g sid) [].
Proof.
  apply heff_silent.
  - apply cf_add_sensor.
  - unfold add_sensor. destruct (zhas sid (g_sensors g)); reflexivity.
  - unfold add_sensor. destruct (zhas sid (g_sensors g)); reflexivity.
  - intro k. unfold vsleep. rewrite get_node_add_sensor_other.
    destruct (get_node g k); [reflexivity|]. destruct (Z.eqb k sid); reflexivity.
  - intro k. unfold queue_of. rewrite get_node_add_sensor_other.
    destruct (get_node g k); [reflexivity|]. destruct (Z.eqb k sid); reflexivity.
Qed.

(* tasks.add_job(msg.encode) of a command that is not withheld *)
Lemma heff_add_job g x : withheld (vsleep g) x = false -> heff g (add_job_send g (encode x)) [x].
Proof.
  intro W. split; [apply cf_add_job|]. split; [|split].
  - intro k. unfold vsleep, get_node. destruct (add_job_send_frame g (encode x)) as (S&_). rewrite S. reflexivity.
  - unfold outs, emitted_part. simpl. rewrite W. simpl. unfold add_job_send.
    destruct (cf_async (g_cf g)).
    + rewrite send_encode. simpl. rewrite sends_app. split; reflexivity.
    + simpl. split; reflexivity.
  - intro k. unfold queue_of, get_node, withheld_part. destruct (add_job_send_frame g (encode x)) as (S&_).
    rewrite S. simpl. rewrite W. simpl. rewrite app_nil_r. reflexivity.
Qed.

(* the reply of a handler, as far as routing lets it through (presentations are dropped) *)
Definition olist_np (rep : option msg) : list msg :=
  match rep with Some x => if m_type x =? 0 then [] else [x] | None => [] end.

Section Effects.
  Variable orc : oracles.
  Variable clock : Z.
  Variable v : ver.

  Notation wh g := (withheld (vsleep g)).

  (* Gateway._route_message, closed *)
  Lemma route_closed g x : cfgv v g ->
    route g x = if m_type x =? 0 then (g, None)
                else if wh g x then (enqueue g x, None) else (g, Some x).
  Proof.
    intro C. unfold route. rewrite (cfgv_tab v g C), k_presentation, k_stream.
    destruct (m_type x =? 0); [reflexivity|].
    unfold withheld, vsleep, enqueue.
    destruct (get_node g (m_node x)) as [nd|]; [|rewrite andb_false_r; reflexivity].
    destruct (m_type x =? 4); cbn [negb orb andb]; [reflexivity|].
    destruct (sleeping nd); reflexivity.
  Qed.

  (* a withheld command goes to the end of the addressed node's queue *)
  Lemma heff_enqueue g x : Inv orc g -> wh g x = true -> heff g (enqueue g x) [x].
  Proof.
    intros I W. unfold enqueue.
    assert (W' := W). unfold withheld, vsleep in W'. apply andb_true_iff in W' as [_ W'].
    destruct (get_node g (m_node x)) as [nd|] eqn:G; [|discriminate].
    pose proof (get_node_ok orc g _ _ I G) as [K _]. simpl in K.
    split; [reflexivity|]. split; [|split].
    - intro k. unfold vsleep. rewrite get_node_put. simpl. rewrite K.
      destruct (Z.eqb_spec k (m_node x)) as [->|N]; [rewrite G|]; reflexivity.
    - unfold outs, emitted_part. simpl. rewrite W. simpl.
      destruct (cf_async (g_cf g)); simpl; rewrite app_nil_r; split; reflexivity.
    - intro k. unfold queue_of, withheld_part. rewrite get_node_put. simpl. rewrite K, W. simpl.
      rewrite (Z.eqb_sym (m_node x) k).
      destruct (Z.eqb_spec k (m_node x)) as [->|N]; simpl; [rewrite G; reflexivity|rewrite app_nil_r; reflexivity].
  Qed.

  Lemma heff_deliver g x : cfgv v g -> Inv orc g -> (m_type x =? 0) = false -> heff g (deliver g x) [x].
  Proof.
    intros C I T. unfold deliver. rewrite (route_closed g x C), T.
    destruct (wh g x) eqn:W.
    - apply heff_enqueue; assumption.
    - apply heff_add_job. exact W.
  Qed.

  Notation vw g := (view_of clock g).

  (* the verdict of is_sensor (GwLemmas.registered) in the words of the reply table *)
  Lemma registered_view g sid cid :
    registered g sid cid = match cid with
                           | None => known (vw g) sid
                           | Some c => known (vw g) sid && vw_child (vw g) sid c
                           end.
  Proof.
    unfold registered. rewrite known_view. unfold zhas. cbn [vw_child view_of]. unfold get_node.
    destruct (zassoc sid (g_sensors g)); destruct cid; reflexivity.
  Qed.

  Lemma heff_ask g sid : cfgv v g -> Inv orc g ->
    heff g (ask g sid) (if node_id_ok sid && v_ge20 v then [presentation_request sid] else []).
  Proof.
    intros C I. unfold ask. rewrite (proj2 C), ge20_eq. destruct (node_id_ok sid && v_ge20 v); [|apply heff_refl].
    apply heff_deliver; [exact C|exact I|reflexivity].
  Qed.

  Lemma desired_value_view g n nd c s : get_node g n = Some nd -> zhas c (n_children nd) = true ->
    option_map py_str (get_desired_value nd c s) = answer_value (vw g) n c s.
  Proof.
    intros G H. unfold get_desired_value, answer_value. cbn [vw_sleeping vw_desired vw_reported view_of].
    unfold vsleep. rewrite G. apply zhas_true in H as [ch E]. rewrite E.
    destruct (sleeping nd); [|reflexivity].
    destruct (zassoc c (n_new nd)) as [dv|]; [|reflexivity].
    destruct (zassoc s dv) as [[x|]|]; reflexivity.
  Qed.

  Lemma next_id_view g : cfgv v g -> next_id g = spec_next_id (vw_ids (vw g)).
  Proof.
    intro C. unfold next_id, spec_next_id. rewrite (cfgv_tab v g C), k_max_node. cbn [vw_ids view_of].
    destruct (g_sensors g) as [|[k a] l]; reflexivity.
  Qed.

  Lemma action_sub s a : internal_action v s = a ->
    match a with
    | Time => s = 1 | Config => s = 6 | IdRequest => s = 3
    | Discover => s = 14 /\ v_ge20 v = true
    | _ => True
    end.
  Proof.
    unfold internal_action. intros <-.
    destruct (Z.eqb_spec s 0); [exact Logic.I|]. destruct (Z.eqb_spec s 1); [assumption|].
    destruct (Z.eqb_spec s 3); [assumption|]. destruct (Z.eqb_spec s 6); [assumption|].
    destruct ((s =? 11) || (s =? 12)); [exact Logic.I|].
    destruct (Z.eqb_spec s 14); [destruct (v_ge20 v); [split; [assumption|reflexivity]|exact Logic.I]|].
    destruct ((s =? 21) && v_ge20 v); [exact Logic.I|].
    destruct (s =? 22); [destruct v; exact Logic.I|]. destruct (s =? 32); destruct v; exact Logic.I.
  Qed.
End Effects.
