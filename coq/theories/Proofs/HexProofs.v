(* Facts about Model/Hex.v: hexlify/unhexlify and pack/unpack round trips for
   all inputs, error classes of pack. *)
From Coq Require Import List NArith ZArith Bool Lia ZifyBool.
From PMS Require Import Base.PyStr Base.Exn Model.Hex.
Import ListNotations.
Open Scope N_scope.

Lemma N_lt16_cases : forall d, d < 16 ->
  d = 0 \/ d = 1 \/ d = 2 \/ d = 3 \/ d = 4 \/ d = 5 \/ d = 6 \/ d = 7 \/
  d = 8 \/ d = 9 \/ d = 10 \/ d = 11 \/ d = 12 \/ d = 13 \/ d = 14 \/ d = 15.
Proof. intros d H. lia. Qed.

Lemma hexval_hexdigit : forall u d, d < 16 -> hexval (hexdigit u d) = Some d.
Proof.
  intros u d H.
  destruct (N_lt16_cases d H) as [E|[E|[E|[E|[E|[E|[E|[E|[E|[E|[E|[E|[E|[E|[E|E]]]]]]]]]]]]]]];
    subst d; destruct u; reflexivity.
Qed.

Lemma hexdigit_ascii : forall u d, d < 16 -> hexdigit u d < 128.
Proof.
  intros u d H. unfold hexdigit.
  destruct (d <? 10) eqn:E; destruct u; lia.
Qed.

(* the three ranges unhexlify reads as digits *)
Lemma hexval_cases : forall c d, hexval c = Some d ->
  (48 <= c <= 57 /\ d = c - 48) \/ (65 <= c <= 70 /\ d = c - 55) \/ (97 <= c <= 102 /\ d = c - 87).
Proof.
  intros c d. unfold hexval.
  destruct ((48 <=? c) && (c <=? 57)) eqn:E1; [intro H; injection H as <-; lia|].
  destruct ((65 <=? c) && (c <=? 70)) eqn:E2; [intro H; injection H as <-; lia|].
  destruct ((97 <=? c) && (c <=? 102)) eqn:E3; [intro H; injection H as <-; lia|discriminate].
Qed.

(* hexlify writes the lower-case spelling of what unhexlify read *)
Lemma hexdigit_hexval : forall c d, hexval c = Some d -> d < 16 /\ hexdigit false d = lower_ascii c.
Proof.
  intros c d H. unfold hexdigit, lower_ascii.
  destruct (d <? 10) eqn:A; destruct ((65 <=? c) && (c <=? 90)) eqn:B;
    destruct (hexval_cases c d H) as [[R E]|[[R E]|[R E]]]; lia.
Qed.

Lemma byte_split : forall x, x < 256 -> x / 16 < 16 /\ x mod 16 < 16 /\ 16 * (x / 16) + x mod 16 = x.
Proof.
  intros x H. repeat split.
  - apply N.div_lt_upper_bound; lia.
  - apply N.mod_lt; lia.
  - symmetry. apply N.div_mod. lia.
Qed.

Lemma bytes_ok_cons : forall x b, bytes_ok (x :: b) = true <-> x < 256 /\ bytes_ok b = true.
Proof.
  intros x b. unfold bytes_ok. cbn [forallb]. unfold byte_ok at 1.
  rewrite andb_true_iff, N.ltb_lt. tauto.
Qed.

Lemma bytes_ok_app : forall a b, bytes_ok (a ++ b) = bytes_ok a && bytes_ok b.
Proof. intros a b. unfold bytes_ok. apply forallb_app. Qed.

Lemma hexlify_gen_cons : forall u x r,
  hexlify_gen u (x :: r) = hexdigit u (x / 16) :: hexdigit u (x mod 16) :: hexlify_gen u r.
Proof. reflexivity. Qed.

Lemma hexlify_app : forall a b, hexlify (a ++ b) = hexlify a ++ hexlify b.
Proof.
  intros a b. unfold hexlify. induction a as [|x a IH]; [reflexivity|].
  cbn [hexlify_gen app]. rewrite IH. reflexivity.
Qed.

Lemma hexlify_gen_length : forall u b, List.length (hexlify_gen u b) = (2 * List.length b)%nat.
Proof.
  intros u b. induction b as [|x b IH]; [reflexivity|].
  cbn [hexlify_gen List.length]. rewrite IH. lia.
Qed.

Lemma hexlify_length : forall b, List.length (hexlify b) = (2 * List.length b)%nat.
Proof. intros. apply hexlify_gen_length. Qed.

Lemma odd_double : forall n, Nat.odd (2 * n) = false.
Proof.
  intros n. rewrite <- Nat.negb_even. rewrite Nat.even_mul. reflexivity.
Qed.

(* unhexlify (hexlify b) = b, in either letter case, for every byte string *)
Lemma unhexlify_hexlify_gen : forall u b, bytes_ok b = true -> unhexlify (hexlify_gen u b) = Ok b.
Proof.
  intros u b H. unfold unhexlify. rewrite hexlify_gen_length, odd_double.
  assert (E : is_ascii (hexlify_gen u b) = true /\ unhex_pairs (hexlify_gen u b) = Some b).
  { induction b as [|x b IH]; [split; reflexivity|].
    apply bytes_ok_cons in H. destruct H as [Hx Hb]. destruct (IH Hb) as [IA IP].
    destruct (byte_split x Hx) as (H1 & H2 & H3).
    pose proof (hexdigit_ascii u _ H1). pose proof (hexdigit_ascii u _ H2).
    cbn [hexlify_gen unhex_pairs]. unfold is_ascii in *. cbn [forallb].
    rewrite (hexval_hexdigit u _ H1), (hexval_hexdigit u _ H2), IA, IP. cbn [option_map]. rewrite H3. split; [lia|reflexivity]. }
  destruct E as [-> ->]. reflexivity.
Qed.

Lemma unhexlify_hexlify : forall b, bytes_ok b = true -> unhexlify (hexlify b) = Ok b.
Proof. intros. apply unhexlify_hexlify_gen. assumption. Qed.

(* the other direction: whatever unhexlify accepts is a byte string whose
   hexlify is the input in lower case *)
Lemma unhex_pairs_cons2 : forall a c r,
  unhex_pairs (a :: c :: r) =
  match hexval a, hexval c with
  | Some x, Some y => option_map (cons (16 * x + y)) (unhex_pairs r)
  | _, _ => None
  end.
Proof. reflexivity. Qed.

Lemma unhex_pairs_sound : forall s b, unhex_pairs s = Some b ->
  bytes_ok b = true /\ hexlify b = map lower_ascii s.
Proof.
  fix IH 1. intros s b.
  destruct s as [|a [|c r]].
  - intros H; inversion H. split; reflexivity.
  - discriminate.
  - rewrite unhex_pairs_cons2.
    destruct (hexval a) as [x|] eqn:Ea; [|discriminate].
    destruct (hexval c) as [y|] eqn:Ec; [|discriminate].
    destruct (unhex_pairs r) as [b'|] eqn:Er; [|discriminate].
    unfold option_map. intros H. assert (Hb0 : b = (16 * x + y) :: b') by congruence. subst b. clear H.
    destruct (IH r b' Er) as [Hb Hh].
    destruct (hexdigit_hexval _ _ Ea) as [Hx Dx]. destruct (hexdigit_hexval _ _ Ec) as [Hy Dy].
    split.
    + apply bytes_ok_cons. split; [lia|assumption].
    + unfold hexlify in *. rewrite hexlify_gen_cons, !map_cons.
      rewrite <- (N.div_unique _ 16 x y), <- (N.mod_unique _ 16 x y) by (lia || reflexivity).
      rewrite Dx, Dy, Hh. reflexivity.
Qed.

Lemma unhexlify_sound : forall s b, unhexlify s = Ok b ->
  bytes_ok b = true /\ hexlify b = map lower_ascii s.
Proof.
  intros s b. unfold unhexlify.
  destruct (negb (is_ascii s)); [discriminate|].
  destruct (Nat.odd (List.length s)); [discriminate|].
  destruct (unhex_pairs s) as [b'|] eqn:E; cbn [of_option]; [|discriminate].
  intros H; inversion H; subst b'. apply unhex_pairs_sound. assumption.
Qed.

Lemma unhexlify_errors : forall s e, unhexlify s = Raise e -> e = ValueError \/ e = BinasciiError.
Proof.
  intros s e. unfold unhexlify.
  destruct (negb (is_ascii s)); [intros H; inversion H; auto|].
  destruct (Nat.odd (List.length s)); [intros H; inversion H; auto|].
  destruct (unhex_pairs s); cbn [of_option]; [discriminate|intros H; inversion H; auto].
Qed.

Definition words_ok (ws : list Z) : bool := forallb word_ok ws.

Lemma word_ok_iff : forall w, word_ok w = true <-> (0 <= w <= 65535)%Z.
Proof. intros w. unfold word_ok. lia. Qed.

(* a word in range is its two bytes, low first, and the other way round *)
Lemma le16_word : forall w, word_ok w = true ->
  exists lo hi, lo < 256 /\ hi < 256 /\ le16 w = [lo; hi] /\ w = (Z.of_N lo + 256 * Z.of_N hi)%Z.
Proof.
  intros w H. apply word_ok_iff in H. exists (Z.to_N (w mod 256)), (Z.to_N (w / 256)).
  pose proof (Z.mod_pos_bound w 256 ltac:(lia)). pose proof (Z.div_pos w 256 ltac:(lia) ltac:(lia)).
  assert (w / 256 < 256)%Z by (apply Z.div_lt_upper_bound; lia).
  repeat split; [lia|lia|]. rewrite !Z2N.id by lia. pose proof (Z.div_mod w 256). lia.
Qed.

Lemma word_le16 : forall lo hi, lo < 256 -> hi < 256 ->
  word_ok (Z.of_N lo + 256 * Z.of_N hi) = true /\ le16 (Z.of_N lo + 256 * Z.of_N hi) = [lo; hi].
Proof.
  intros lo hi Hl Hh. split; [apply word_ok_iff; lia|]. unfold le16.
  rewrite <- (Z.mod_unique_pos _ 256 (Z.of_N hi) (Z.of_N lo)), <- (Z.div_unique_pos _ 256 (Z.of_N hi) (Z.of_N lo)) by lia.
  rewrite !N2Z.id. reflexivity.
Qed.

Lemma le16_bytes : forall w, word_ok w = true -> bytes_ok (le16 w) = true.
Proof.
  intros w H. destruct (le16_word w H) as (lo & hi & Hl & Hh & -> & _).
  apply bytes_ok_cons. split; [exact Hl|]. apply bytes_ok_cons. split; [exact Hh|reflexivity].
Qed.

Lemma words_ok_cons : forall w r, words_ok (w :: r) = true <-> word_ok w = true /\ words_ok r = true.
Proof. intros w r. unfold words_ok. cbn [forallb]. apply andb_true_iff. Qed.

Lemma pack_le16_ok : forall ws, words_ok ws = true -> pack_le16 ws = Ok (concat (map le16 ws)).
Proof.
  induction ws as [|w r IH]; [reflexivity|]. intros H. apply words_ok_cons in H. destruct H as [Hw Hr].
  cbn [pack_le16 map concat]. rewrite Hw, (IH Hr). reflexivity.
Qed.

Lemma pack_le16_err : forall ws, words_ok ws = false -> pack_le16 ws = Raise StructError.
Proof.
  induction ws as [|w r IH]; [discriminate|].
  unfold words_ok. cbn [forallb pack_le16]. intros H.
  destruct (word_ok w); [|reflexivity].
  cbn [andb] in H. rewrite (IH H). reflexivity.
Qed.

Lemma le16s_spec : forall ws, words_ok ws = true ->
  bytes_ok (concat (map le16 ws)) = true /\ List.length (concat (map le16 ws)) = (2 * List.length ws)%nat /\
  words_of (concat (map le16 ws)) = ws.
Proof.
  induction ws as [|w r IH]; [repeat split|]. intros H. apply words_ok_cons in H. destruct H as [Hw Hr].
  destruct (IH Hr) as (I1 & I2 & I3). destruct (le16_word w Hw) as (lo & hi & _ & _ & E & Ew).
  cbn [map concat]. rewrite bytes_ok_app, (le16_bytes w Hw), I1, app_length, I2, E.
  cbn [app words_of List.length]. rewrite I3, <- Ew. repeat split. lia.
Qed.

Lemma pack_le16_bytes : forall ws b, pack_le16 ws = Ok b ->
  bytes_ok b = true /\ List.length b = (2 * List.length ws)%nat.
Proof.
  intros ws b H. destruct (words_ok ws) eqn:E.
  - rewrite (pack_le16_ok ws E) in H. injection H as <-. destruct (le16s_spec ws E) as (I1 & I2 & _). auto.
  - rewrite (pack_le16_err ws E) in H. discriminate.
Qed.

(* struct.unpack("<nH", struct.pack("<nH", *ws)) = ws for all words in range *)
Lemma unpack_pack : forall ws b, pack_le16 ws = Ok b -> unpack_le16 (List.length ws) b = Ok ws.
Proof.
  intros ws b H. destruct (words_ok ws) eqn:E.
  - rewrite (pack_le16_ok ws E) in H. injection H as <-. destruct (le16s_spec ws E) as (_ & I2 & I3).
    unfold unpack_le16. rewrite I2, Nat.eqb_refl, I3. reflexivity.
  - rewrite (pack_le16_err ws E) in H. discriminate.
Qed.

(* struct.pack("<nH", *struct.unpack("<nH", b)) = b for every byte string of the right length *)
Lemma words_of_sound : forall b, bytes_ok b = true -> Nat.even (List.length b) = true ->
  words_ok (words_of b) = true /\ concat (map le16 (words_of b)) = b.
Proof.
  fix IH 1. intros b.
  destruct b as [|lo [|hi r]].
  - intros _ _. split; reflexivity.
  - intros _ H. discriminate.
  - intros Hb He.
    apply bytes_ok_cons in Hb. destruct Hb as [Hlo Hb].
    apply bytes_ok_cons in Hb. destruct Hb as [Hhi Hb].
    destruct (IH r Hb He) as [I1 I2]. destruct (word_le16 lo hi Hlo Hhi) as [W E].
    cbn [words_of map concat]. rewrite I2, E. split; [apply words_ok_cons; split; assumption|reflexivity].
Qed.

Lemma pack_unpack : forall n b ws, bytes_ok b = true -> unpack_le16 n b = Ok ws ->
  pack_le16 ws = Ok b /\ List.length ws = n /\ words_ok ws = true.
Proof.
  intros n b ws Hb. unfold unpack_le16.
  destruct (Nat.eqb (List.length b) (2 * n)) eqn:E; [|discriminate].
  apply Nat.eqb_eq in E. intros H; injection H as <-.
  destruct (words_of_sound b Hb) as [I1 I2]; [rewrite E, Nat.even_mul; reflexivity|].
  split; [rewrite (pack_le16_ok _ I1), I2; reflexivity|]. split; [|assumption].
  destruct (le16s_spec _ I1) as (_ & L & _). rewrite I2 in L. lia.
Qed.

Lemma unpack_le16_err : forall n b e, unpack_le16 n b = Raise e -> e = StructError /\ List.length b <> (2 * n)%nat.
Proof.
  intros n b e. unfold unpack_le16.
  destruct (Nat.eqb (List.length b) (2 * n)) eqn:E; [discriminate|].
  apply Nat.eqb_neq in E. intros H; inversion H. auto.
Qed.

Lemma fw_int_to_hex_ok : forall ws, words_ok ws = true ->
  fw_int_to_hex ws = Ok (hexlify (concat (map le16 ws))).
Proof. intros ws H. unfold fw_int_to_hex. rewrite (pack_le16_ok ws H). reflexivity. Qed.

Lemma fw_int_to_hex_err : forall ws, words_ok ws = false -> fw_int_to_hex ws = Raise StructError.
Proof. intros ws H. unfold fw_int_to_hex. rewrite (pack_le16_err ws H). reflexivity. Qed.

Lemma fw_hex_int_roundtrip : forall ws s, fw_int_to_hex ws = Ok s -> fw_hex_to_int s (List.length ws) = Ok ws.
Proof.
  intros ws s. unfold fw_int_to_hex, fw_hex_to_int.
  destruct (pack_le16 ws) as [b|e] eqn:E; cbn [bind]; [|discriminate].
  intros H; inversion H; subst s.
  destruct (pack_le16_bytes ws b E) as [Hb _].
  rewrite (unhexlify_hexlify b Hb). cbn [bind]. apply unpack_pack. assumption.
Qed.

Lemma fw_int_hex_roundtrip : forall s n ws, fw_hex_to_int s n = Ok ws ->
  fw_int_to_hex ws = Ok (map lower_ascii s) /\ List.length ws = n /\ words_ok ws = true.
Proof.
  intros s n ws. unfold fw_hex_to_int, fw_int_to_hex.
  destruct (unhexlify s) as [b|e] eqn:E; cbn [bind]; [|discriminate].
  destruct (unhexlify_sound s b E) as [Hb Hh].
  intros H. destruct (pack_unpack n b ws Hb H) as (P & L & W).
  rewrite P. cbn [bind]. rewrite Hh. auto.
Qed.

Lemma fw_hex_to_int_errors : forall s n e, fw_hex_to_int s n = Raise e ->
  e = ValueError \/ e = BinasciiError \/ e = StructError.
Proof.
  intros s n e. unfold fw_hex_to_int.
  destruct (unhexlify s) as [b|e'] eqn:E; cbn [bind].
  - intros H. apply unpack_le16_err in H. tauto.
  - intros H; inversion H; subst e'. apply unhexlify_errors in E. tauto.
Qed.
