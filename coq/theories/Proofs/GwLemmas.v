(* Frame and bookkeeping lemmas about Model/Gateway.v *)
From Coq Require Import List NArith ZArith Bool String Lia.
From PMS Require Import Base.PyStr Base.PyInt Base.Exn Model.Codec Model.Rules Model.TableTypes
  Gen.Tables Model.Validate Model.Hex Model.Ota Model.Oracles Model.Gateway Proofs.ValidateProofs.
Import ListNotations.
Open Scope Z_scope.

Lemma zassoc_zset {A} k k' (a : A) l :
  zassoc k' (zset k a l) = if Z.eqb k' k then Some a else zassoc k' l.
Proof.
  induction l as [|[k2 a2] l IH]; simpl; [reflexivity|].
  destruct (Z.eqb_spec k k2) as [<-|N]; simpl; [destruct (k' =? k); reflexivity|].
  rewrite IH. destruct (Z.eqb_spec k' k2) as [->|]; [|reflexivity].
  destruct (Z.eqb_spec k2 k); [congruence|reflexivity].
Qed.

Lemma zassoc_zset_same {A} k (a : A) l : zassoc k (zset k a l) = Some a.
Proof. rewrite zassoc_zset, Z.eqb_refl. reflexivity. Qed.

Lemma zassoc_zset_other {A} k k' (a : A) l : k <> k' -> zassoc k' (zset k a l) = zassoc k' l.
Proof. intro N. rewrite zassoc_zset. destruct (Z.eqb_spec k' k); [congruence|reflexivity]. Qed.

Lemma zset_nonnil {A} k (a : A) l : zset k a l <> [].
Proof. destruct l as [|[k' a'] l]; simpl; [discriminate|]. destruct (Z.eqb k k'); discriminate. Qed.

(* assignment to a new key appends it *)
Lemma zset_new {A} k (b : A) l : zassoc k l = None -> zset k b l = l ++ [(k, b)].
Proof.
  induction l as [|[k' a'] l IH]; simpl; [reflexivity|]. destruct (Z.eqb k k'); [discriminate|].
  intro H. rewrite IH by exact H. reflexivity.
Qed.

Lemma Forall_zset {A} (P : Z * A -> Prop) k a l : Forall P l -> P (k, a) -> Forall P (zset k a l).
Proof.
  intros F Pa. induction l as [|[k' a'] l IH]; simpl; [constructor; [exact Pa|constructor]|].
  inversion F; subst. destruct (Z.eqb k k'); constructor; auto.
Qed.

Lemma Forall_zdel {A} (P : Z * A -> Prop) k l : Forall P l -> Forall P (zdel k l).
Proof.
  intros F. induction l as [|[k' a'] l IH]; simpl; [constructor|].
  inversion F; subst. destruct (Z.eqb k k'); [assumption|constructor; auto].
Qed.

Lemma zassoc_none_notin {A} k (l : list (Z * A)) : zassoc k l = None <-> ~ In k (map fst l).
Proof.
  induction l as [|[k' a] l IH]; simpl; [tauto|].
  destruct (Z.eqb_spec k k') as [->|N].
  - split; [discriminate|]. intro H. exfalso. apply H. left. reflexivity.
  - rewrite IH. split; [intros H [E|I]; [congruence|tauto]|tauto].
Qed.

Lemma in_keys_zdel {A} k k' (l : list (Z * A)) : In k' (map fst (zdel k l)) -> In k' (map fst l).
Proof.
  induction l as [|[k2 a2] l IH]; simpl; [tauto|].
  destruct (Z.eqb k k2); simpl; tauto.
Qed.

Lemma in_keys_zset {A} k (a : A) k' l : In k' (map fst (zset k a l)) -> k' = k \/ In k' (map fst l).
Proof.
  induction l as [|[k2 a2] l IH]; simpl; [intros [E|[]]; auto|].
  destruct (Z.eqb_spec k k2) as [->|N]; simpl; [tauto|].
  intros [E|I]; [tauto|]. apply IH in I. tauto.
Qed.

Lemma NoDup_zdel {A} k (l : list (Z * A)) : NoDup (map fst l) -> NoDup (map fst (zdel k l)).
Proof.
  induction l as [|[k2 a2] l IH]; simpl; intro H; [constructor|].
  inversion H; subst. destruct (Z.eqb k k2); [assumption|].
  simpl. constructor; [|auto]. intro I. apply in_keys_zdel in I. contradiction.
Qed.

Lemma NoDup_zset {A} k (a : A) l : NoDup (map fst l) -> NoDup (map fst (zset k a l)).
Proof.
  induction l as [|[k2 a2] l IH]; simpl; intro H; [constructor; [tauto|constructor]|].
  inversion H; subst. destruct (Z.eqb_spec k k2) as [->|N]; simpl; [constructor; assumption|].
  constructor; [|auto]. intro I. apply in_keys_zset in I. destruct I as [E|I]; [congruence|contradiction].
Qed.

Lemma zassoc_zdel_other {A} k k' (l : list (Z * A)) : k <> k' -> zassoc k' (zdel k l) = zassoc k' l.
Proof.
  intro N. induction l as [|[k2 a2] l IH]; simpl; [reflexivity|].
  destruct (Z.eqb_spec k k2) as [->|N2]; simpl.
  - destruct (Z.eqb_spec k' k2); [congruence|reflexivity].
  - destruct (Z.eqb_spec k' k2); [reflexivity|exact IH].
Qed.

(* Deletion removes the first entry of a key, hence all of them only when keys are unique
   (Python dicts). *)
Lemma zassoc_zdel_same {A} k (l : list (Z * A)) : NoDup (map fst l) -> zassoc k (zdel k l) = None.
Proof.
  induction l as [|[k2 a2] l IH]; simpl; intro H; [reflexivity|].
  inversion H; subst. destruct (Z.eqb_spec k k2) as [->|N].
  - apply zassoc_none_notin. assumption.
  - simpl. destruct (Z.eqb_spec k k2); [contradiction|auto].
Qed.

Lemma zassoc_Forall {A} (P : Z * A -> Prop) k l a : Forall P l -> zassoc k l = Some a -> P (k, a).
Proof. intros F H. apply zassoc_In in H. rewrite Forall_forall in F. apply F. exact H. Qed.

Lemma zhas_true {A} k (l : list (Z * A)) : zhas k l = true -> exists a, zassoc k l = Some a.
Proof. unfold zhas. destruct (zassoc k l) as [a|]; [exists a; reflexivity|discriminate]. Qed.

Lemma zhas_assoc {A} k (l : list (Z * A)) : zhas k l = match zassoc k l with Some _ => true | None => false end.
Proof. reflexivity. Qed.

Lemma zhas_false {A} k (l : list (Z * A)) : zhas k l = false -> zassoc k l = None.
Proof. unfold zhas. destruct (zassoc k l); [discriminate|reflexivity]. Qed.

Lemma zhas_zset {A} k k' (a : A) l : zhas k' (zset k a l) = (Z.eqb k' k || zhas k' l).
Proof. unfold zhas. rewrite zassoc_zset. destruct (Z.eqb k' k); reflexivity. Qed.

Lemma zassoc_app {A} k (l1 l2 : list (Z * A)) :
  zassoc k (l1 ++ l2) = match zassoc k l1 with Some a => Some a | None => zassoc k l2 end.
Proof.
  induction l1 as [|[k' a'] l1 IH]; simpl; [reflexivity|].
  destruct (Z.eqb k k'); [reflexivity|exact IH].
Qed.

Lemma zassoc_map {A B} (f : A -> B) k l :
  zassoc k (map (fun kx => (fst kx, f (snd kx))) l) = option_map f (zassoc k l).
Proof.
  induction l as [|[k' a] l IH]; simpl; [reflexivity|].
  destruct (Z.eqb k k'); [reflexivity|exact IH].
Qed.

Lemma zhas_app {A} k (l1 l2 : list (Z * A)) : zhas k (l1 ++ l2) = zhas k l1 || zhas k l2.
Proof. unfold zhas. rewrite zassoc_app. destruct (zassoc k l1); reflexivity. Qed.

Lemma fold_max_ge l : forall a, a <= fold_left Z.max l a /\ forall x, In x l -> x <= fold_left Z.max l a.
Proof.
  induction l as [|y l IH]; intro a; simpl; [split; [lia|tauto]|].
  destruct (IH (Z.max a y)) as [A B]. split; [lia|].
  intros x [->|I]; [lia|auto].
Qed.

(* a predicate kept by every step of a fold is kept by the fold *)
Lemma fold_left_preserves {A B} (f : A -> B -> A) (P : A -> Prop) :
  (forall a b, P a -> P (f a b)) -> forall l a, P a -> P (fold_left f l a).
Proof. intros H l. induction l as [|b l IH]; intros a Pa; [exact Pa|]. apply IH, H, Pa. Qed.

(* what a load restores, projected again, is the tree that was loaded *)
Lemma proj_load_tree t : proj (load_tree t) = t.
Proof.
  assert (M : forall {X} (f : X -> X) l, (forall x, f x = x) -> map f l = l).
  { intros X f l H. rewrite <- (map_id l) at 2. apply map_ext, H. }
  unfold proj, load_tree. rewrite map_map. apply M. intros [k [i chs ty sn sv b p h]].
  unfold proj_node, load_node. cbn. rewrite map_map, M; [reflexivity|]. intros [c []]. reflexivity.
Qed.

Lemma get_node_put g nd k : get_node (put_node g nd) k = if k =? n_id nd then Some nd else get_node g k.
Proof. apply zassoc_zset. Qed.

Section Frames.
  Variable orc : oracles.
  Variable clock : Z.

  Lemma send_frame g l :
    g_sensors (send g l) = g_sensors g /\ g_ota (send g l) = g_ota g /\ g_cf (send g l) = g_cf g /\
    g_jobs (send g l) = g_jobs g /\ g_dirty (send g l) = g_dirty g /\ g_metric (send g l) = g_metric g.
  Proof. unfold send. destruct l; repeat split; reflexivity. Qed.

  Lemma add_job_send_frame g l :
    g_sensors (add_job_send g l) = g_sensors g /\ g_ota (add_job_send g l) = g_ota g /\
    g_cf (add_job_send g l) = g_cf g /\ g_dirty (add_job_send g l) = g_dirty g /\
    g_metric (add_job_send g l) = g_metric g.
  Proof.
    unfold add_job_send. destruct (cf_async (g_cf g)); [|repeat split; reflexivity].
    destruct (send_frame g l) as (?&?&?&?&?&?). repeat split; assumption.
  Qed.

  Lemma fold_add_job_send_frame ls g :
    g_sensors (fold_left add_job_send ls g) = g_sensors g /\ g_ota (fold_left add_job_send ls g) = g_ota g /\
    g_cf (fold_left add_job_send ls g) = g_cf g /\ g_dirty (fold_left add_job_send ls g) = g_dirty g /\
    g_metric (fold_left add_job_send ls g) = g_metric g.
  Proof.
    revert g. induction ls as [|l ls IH]; intro g; simpl; [repeat split; reflexivity|].
    destruct (IH (add_job_send g l)) as (A&B&C&D&E).
    destruct (add_job_send_frame g l) as (A'&B'&C'&D'&E').
    repeat split; congruence.
  Qed.

  Lemma alert_frame g m :
    g_sensors (alert g m) = g_sensors g /\ g_ota (alert g m) = g_ota g /\ g_cf (alert g m) = g_cf g /\
    g_jobs (alert g m) = g_jobs g /\ g_metric (alert g m) = g_metric g.
  Proof.
    unfold alert. destruct (cf_callback (g_cf g)), (cf_persist (g_cf g)); repeat split; reflexivity.
  Qed.

  Lemma put_node_frame g nd :
    g_ota (put_node g nd) = g_ota g /\ g_cf (put_node g nd) = g_cf g /\ g_jobs (put_node g nd) = g_jobs g /\
    g_dirty (put_node g nd) = g_dirty g /\ g_metric (put_node g nd) = g_metric g /\ g_log (put_node g nd) = g_log g /\
    g_sensors (put_node g nd) = zset (n_id nd) nd (g_sensors g).
  Proof. repeat split; reflexivity. Qed.

  (* the run of an appended history *)
  Lemma run_app g a b : run orc clock g (a ++ b) = run orc clock (run orc clock g a) b.
  Proof. apply fold_left_app. Qed.

  (* the dispatcher on an accepted line whose command has handler h *)
  Lemma logic_handler g l m h :
    decode l = Some m -> gvalidate orc g m = true -> type_handler (tab g) (m_type m) = Some h ->
    logic orc clock g l =
    (do r <- run_handler orc clock h g m;
     let '(g1, reply) := r in let '(g2, routed) := route_opt g1 reply in Ok (g2, option_map encode routed)).
  Proof. intros D V TH. unfold logic. rewrite D, V, TH. reflexivity. Qed.
End Frames.

(* Gateway._route_message: the message is withheld in the queue of its sleeping addressee, or the state is untouched *)
Lemma route_cases g m :
  (exists nd, get_node g (m_node m) = Some nd /\ sleeping nd = true /\
              route g m = (put_node g (with_queue nd (n_queue nd ++ [encode m])), None)) \/
  (fst (route g m) = g /\
   (snd (route g m) = None \/
    snd (route g m) = Some m /\
    (m_type m = vt_stream (tab g) \/
     match get_node g (m_node m) with Some nd => sleeping nd = false | None => True end))).
Proof.
  unfold route. destruct (m_type m =? vt_presentation (tab g)); [right; auto|].
  destruct (get_node g (m_node m)) as [nd|] eqn:G; [|right; auto].
  destruct (Z.eqb_spec (m_type m) (vt_stream (tab g))) as [ST|_]; cbn [orb]; [right; auto|].
  destruct (sleeping nd) eqn:SL; cbn [negb]; [left; exists nd; auto|right; auto].
Qed.

(* the node id guard of Gateway.is_sensor: `sensorid in range(BROADCAST_ID + 1)` *)
Lemma node_id_ok_iff sid : node_id_ok sid = true <-> 0 <= sid <= 255.
Proof. apply (between_iff 255). Qed.

(* a validated message carries a node id that passes the guard (any table, any oracle) *)
Lemma validate_node_id_ok ov of t m : validate ov of t m = true -> node_id_ok (m_node m) = true.
Proof.
  unfold validate. intro V.
  repeat match type of V with _ && _ = true => apply andb_true_iff in V as [V _] end.
  exact V.
Qed.

Lemma gvalidate_node_id_ok orc g m : gvalidate orc g m = true -> node_id_ok (m_node m) = true.
Proof. apply validate_node_id_ok. Qed.

(* the verdict of Gateway.is_sensor *)
Definition registered (g : gw) (sid : Z) (cid : option Z) : bool :=
  match get_node g sid with
  | None => false
  | Some nd => match cid with None => true | Some c => zhas c (n_children nd) end
  end.

(* `if self._route_message(msg): self.tasks.add_job(msg.encode)` *)
Definition deliver (g : gw) (x : msg) : gw :=
  let '(g1, r) := route g x in
  match r with Some m' => add_job_send g1 (encode m') | None => g1 end.

Lemma registered_get g n cid : registered g n cid = true ->
  exists nd, get_node g n = Some nd /\ forall c, cid = Some c -> zhas c (n_children nd) = true.
Proof.
  unfold registered. destruct (get_node g n) as [nd|]; [|discriminate].
  intro H. exists nd. split; [reflexivity|]. intros c ->. exact H.
Qed.

Lemma is_sensor_known g sid cid nd : get_node g sid = Some nd ->
  match cid with None => True | Some c => zhas c (n_children nd) = true end ->
  is_sensor g sid cid = Ok (g, true).
Proof. intros G H. unfold is_sensor. rewrite G. destruct cid; [rewrite H|]; reflexivity. Qed.

(* is_sensor on an id outside 0..255: the verdict, and nothing else happens (all versions) *)
Lemma is_sensor_out_of_range g sid cid : node_id_ok sid = false ->
  is_sensor g sid cid =
  Ok (g, match get_node g sid with
         | None => false
         | Some nd => match cid with None => true | Some c => zhas c (n_children nd) end
         end).
Proof. intro N. unfold is_sensor. rewrite N, andb_false_r. reflexivity. Qed.

(* when is_sensor returns, its verdict is `registered`; a positive one leaves the state alone *)
Lemma is_sensor_verdict g sid cid g1 b : is_sensor g sid cid = Ok (g1, b) ->
  registered g sid cid = b /\ (b = true -> g1 = g).
Proof.
  unfold is_sensor. fold (registered g sid cid). destruct (registered g sid cid); cbn [negb andb].
  - intros [= <- <-]. split; reflexivity.
  - destruct (node_id_ok sid && cf_ge20 (g_cf g)); [|intros [= <- <-]; split; [reflexivity|discriminate]].
    destruct (sassoc _ _); [|discriminate]. destruct (route g _).
    intros [= <- <-]. split; [reflexivity|discriminate].
Qed.

Lemma is_sensor_true g sid cid g1 : is_sensor g sid cid = Ok (g1, true) ->
  g1 = g /\ exists nd, get_node g sid = Some nd.
Proof.
  intro E. destruct (is_sensor_verdict _ _ _ _ _ E) as [R K]. rewrite (K eq_refl).
  destruct (registered_get g sid cid R) as (nd & G & _). split; [reflexivity|exists nd; exact G].
Qed.

(* the frame of the handlers and of set_child_value, for any property R of the result: is_sensor;
   an unknown node ends the call; a known one is looked up and the body runs on the unchanged state *)
Lemma known_node_frame_reg {A} (R : res A -> Prop) g sid cid (none : gw -> A) (body : gw -> node -> res A) :
  (forall e, is_sensor g sid cid = Raise e -> R (Raise e)) ->
  (forall g1, is_sensor g sid cid = Ok (g1, false) -> registered g sid cid = false -> R (Ok (none g1))) ->
  (forall nd, get_node g sid = Some nd -> registered g sid cid = true -> R (body g nd)) ->
  R (do gr <- is_sensor g sid cid;
     let '(g1, known) := gr in
     if negb known then Ok (none g1)
     else match get_node g1 sid with None => Raise KeyError | Some nd => body g1 nd end).
Proof.
  intros He Hu Hk. destruct (is_sensor g sid cid) as [[g1 b]|e] eqn:E; cbn [bind]; [|exact (He e eq_refl)].
  destruct (is_sensor_verdict _ _ _ _ _ E) as [V K]. destruct b; cbn [negb]; [|exact (Hu g1 eq_refl V)].
  rewrite (K eq_refl). destruct (registered_get g sid cid V) as (nd & G & _). rewrite G. exact (Hk nd G V).
Qed.

Lemma known_node_frame {A} (R : res A -> Prop) g sid cid (none : gw -> A) (body : gw -> node -> res A) :
  (forall e, is_sensor g sid cid = Raise e -> R (Raise e)) ->
  (forall g1, is_sensor g sid cid = Ok (g1, false) -> R (Ok (none g1))) ->
  (forall nd, get_node g sid = Some nd -> R (body g nd)) ->
  R (do gr <- is_sensor g sid cid;
     let '(g1, known) := gr in
     if negb known then Ok (none g1)
     else match get_node g1 sid with None => Raise KeyError | Some nd => body g1 nd end).
Proof. intros He Hu Hk. apply known_node_frame_reg; auto. Qed.

(* Sensor.init_smart_sleep_mode: init_smart_sleep nd = with_new nd (fold_left add_slot (n_children nd) (n_new nd)) *)
Definition add_slot (nw : list (Z * list (Z * option pyval))) (kc : Z * child) :=
  if zhas (fst kc) nw then nw else nw ++ [(fst kc, [])].

(* existing slots are kept in place, with their content; a child without one gets an empty one *)
Lemma add_slots_assoc chs : forall nw c,
  zassoc c (fold_left add_slot chs nw) =
  match zassoc c nw with Some dv => Some dv | None => if zhas c chs then Some [] else None end.
Proof.
  induction chs as [|[k ch] r IH]; intros nw c; simpl; [destruct (zassoc c nw); reflexivity|].
  rewrite IH. unfold add_slot, zhas. cbn [fst zassoc].
  destruct (zassoc k nw) as [dk|] eqn:K.
  - destruct (zassoc c nw) eqn:E; [reflexivity|]. destruct (Z.eqb_spec c k) as [->|N]; [congruence|reflexivity].
  - rewrite zassoc_app. destruct (zassoc c nw); [reflexivity|]. cbn [zassoc]. destruct (Z.eqb c k); reflexivity.
Qed.

(* the old desired state is a prefix of the new one *)
Lemma add_slots_prefix chs nw : exists ext, fold_left add_slot chs nw = nw ++ ext /\ Forall (fun e => snd e = []) ext.
Proof.
  revert nw. induction chs as [|kc r IH]; intro nw; simpl.
  { exists []. rewrite app_nil_r. split; [reflexivity|constructor]. }
  destruct (IH (add_slot nw kc)) as (ext & E & F). rewrite E. unfold add_slot.
  destruct (zhas (fst kc) nw); [exists ext; split; [reflexivity|exact F]|].
  exists ((fst kc, []) :: ext). rewrite <- app_assoc. split; [reflexivity|]. constructor; [reflexivity|exact F].
Qed.

Lemma fw_lookup_In t v l f : fw_lookup t v l = Some f -> exists k, In (k, f) l.
Proof.
  induction l as [|[[t' v'] f'] l IH]; simpl; [discriminate|].
  destruct (Z.eqb t t' && Z.eqb v v'); [intros [= <-]; eauto|intro H; destruct (IH H); eauto].
Qed.

(* ota_get_fw only reads the firmware store *)
Lemma ota_get_fw_fw o nid first req :
  o_fw (fst (ota_get_fw o nid first req)) = o_fw o /\
  forall t v f, snd (ota_get_fw o nid first req) = Some (t, v, f) -> fw_lookup t v (o_fw o) = Some f.
Proof.
  unfold ota_get_fw.
  destruct first; cbv beta iota zeta;
    (destruct (zassoc nid _) as [id|]; [|destruct (zassoc nid _) as [id|]; [|split; [reflexivity|discriminate]]]);
    (destruct (match req with Some r => r | None => id end) as [t0 v0];
     destruct (fw_lookup t0 v0 (o_fw o)) eqn:L; (split; [reflexivity|]); [intros t v f' [= <- <- <-]; exact L|discriminate]).
Qed.
