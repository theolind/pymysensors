(* C15 - the shape that harness/translate/sched_ast.py read from the working tree
   (Gen/SchedAst.v).  [gen_good] is the one obligation that depends on the code: it is
   re-checked by computation on every run; Props/C15.v instantiates the theorems of
   SaveSchedProofs.v, which hold for every good shape, with it. *)
From Coq Require Import List ZArith Bool Arith.
From PMS Require Import Model.SaveSched Gen.SchedAst.
Import ListNotations.

Lemma gen_good : good gen_cfg = true.
Proof. vm_compute. reflexivity. Qed.

(* the issubclass facts the translator recorded from the live classes; it writes the rows of the
   handlers of gen_cfg from the same facts (the two are not linked here) *)
Lemma gen_mro :
  sub_OSError_Exception = true /\ sub_RuntimeError_Exception = true /\ sub_CancelledError_Exception = false.
Proof. vm_compute. repeat split; reflexivity. Qed.
