(* C04 / C14 / C06 core: the EFFECT of every handler and of the dispatcher on the persisted tree,
   the callback log, the dirty flag and the job queue, as one relation `eff`. *)
From Coq Require Import List NArith ZArith Bool String Lia.
From PMS Require Import Base.PyStr Base.PyInt Base.Exn Model.Codec Model.Rules Model.TableTypes
  Gen.Tables Model.Validate Model.Hex Model.Ota Model.Oracles Model.Gateway Spec.SerialApi
  Proofs.PyStrFacts Proofs.PyIntFacts Proofs.CodecProofs Proofs.ValidateProofs Proofs.GwLemmas Proofs.GwInv
  Spec.TreeMeaning.
Import ListNotations.
Open Scope string_scope.
Open Scope list_scope.
Open Scope Z_scope.

Definition zmap {A B} (f : A -> B) (l : list (Z * A)) : list (Z * B) :=
  map (fun kx => (fst kx, f (snd kx))) l.

Lemma proj_zmap s : proj s = zmap proj_node s.
Proof. reflexivity. Qed.

Lemma zassoc_zmap {A B} (f : A -> B) k l : zassoc k (zmap f l) = option_map f (zassoc k l).
Proof. apply zassoc_map. Qed.

Lemma zhas_zmap {A B} (f : A -> B) k l : zhas k (zmap f l) = zhas k l.
Proof. unfold zhas. rewrite zassoc_zmap. destruct (zassoc k l); reflexivity. Qed.

Lemma zset_zmap {A B} (f : A -> B) k a l : zmap f (zset k a l) = zset k (f a) (zmap f l).
Proof.
  induction l as [|[k' a'] l IH]; simpl; [reflexivity|].
  destruct (Z.eqb k k'); simpl; [reflexivity|]. rewrite IH. reflexivity.
Qed.

Lemma keys_zmap {A B} (f : A -> B) l : map fst (zmap f l) = map fst l.
Proof. unfold zmap. rewrite map_map. reflexivity. Qed.

Lemma zset_same_id {A} k (a : A) l : zassoc k l = Some a -> zset k a l = l.
Proof.
  induction l as [|[k' a'] l IH]; simpl; [discriminate|].
  destruct (Z.eqb_spec k k').
  - intro H. inversion H. subst. reflexivity.
  - intro H. rewrite (IH H). reflexivity.
Qed.

Lemma zhas_assoc {A} k (l : list (Z * A)) : zhas k l = match zassoc k l with Some _ => true | None => false end.
Proof. reflexivity. Qed.

Lemma zhas_In {A} k (l : list (Z * A)) : zhas k l = true <-> In k (map fst l).
Proof.
  unfold zhas. induction l as [|[k' a] l IH]; simpl; [split; [discriminate|tauto]|].
  destruct (Z.eqb_spec k k'); [subst; split; auto|].
  rewrite IH. split; [auto|]. intros [E|I]; [congruence|exact I].
Qed.

Lemma zhas_zset {A} k (a : A) l x : zhas x (zset k a l) = (x =? k) || zhas x l.
Proof. apply GwLemmas.zhas_zset. Qed.

Lemma tupd_none k f t : zassoc k t = None -> tupd k f t = t.
Proof. unfold tupd. intros ->. reflexivity. Qed.

Lemma tupd_id k f t n : zassoc k t = Some n -> f n = n -> tupd k f t = t.
Proof. unfold tupd. intros E F. rewrite E, F. apply zset_same_id. exact E. Qed.

Lemma tnext_gt t k : zhas k t = true -> k < tnext t.
Proof.
  intro H. apply zhas_In in H. unfold tnext. destruct t as [|[k0 n0] r]; [destruct H|].
  simpl in H. destruct (fold_max_ge (map fst r) k0) as [A B].
  destruct H as [->|I]; [lia|]. specialize (B _ I). lia.
Qed.

Lemma tnext_fresh t : zhas (tnext t) t = false.
Proof. destruct (zhas (tnext t) t) eqn:E; [|reflexivity]. apply tnext_gt in E. lia. Qed.

Lemma tnext_proj s :
  tnext (proj s) =
  match s with
  | [] => 1
  | _ => fold_left Z.max (map fst s) (fst (hd (0, new_node 0) s)) + 1
  end.
Proof.
  destruct s as [|[k n] r]; [reflexivity|]. unfold tnext, proj. cbn [map fst snd hd fold_left].
  rewrite Z.max_id. change (map (fun kn => (fst kn, proj_node (snd kn))) r) with (zmap proj_node r).
  rewrite keys_zmap. reflexivity.
Qed.

(* a message that does not alert does not change the tree *)
Lemma meaning_unchanged sv k t m : alerting_k k t m = false -> meaning sv k t m = t.
Proof.
  destruct k; unfold alerting_k, meaning; intro A; try discriminate A; try reflexivity;
    try (apply tupd_none, zhas_false; exact A).
  - (* child presentation *)
    unfold known, known_child, zhas in A.
    destruct (zassoc (m_node m) t) as [nd|] eqn:E; [|apply tupd_none; exact E].
    cbn [andb] in A. apply negb_false_iff in A.
    eapply tupd_id; [exact E|]. cbn beta. unfold zhas. rewrite A. reflexivity.
  - (* set *)
    unfold known_child in A.
    destruct (zassoc (m_node m) t) as [nd|] eqn:E; [|apply tupd_none; exact E].
    eapply tupd_id; [exact E|]. cbn beta. rewrite (zhas_false _ _ A). reflexivity.
  - (* id request *)
    rewrite A. reflexivity.
Qed.

Definition is_cb (e : event) : bool := match e with ECallback _ _ => true | _ => false end.
Definition cbs (l : list event) : list event := filter is_cb l.
Definition is_jsend (j : job) : bool := match j with JSend _ => true | JLogic _ => false end.

Lemma cbs_app a b : cbs (a ++ b) = cbs a ++ cbs b.
Proof. apply filter_app. Qed.

(* the log grows by ext, the job queue by js *)
Definition grows (g g' : gw) (ext : list event) (js : list job) : Prop :=
  g_log g' = g_log g ++ ext /\ g_jobs g' = g_jobs g ++ js /\ forallb is_jsend js = true /\
  (cf_async (g_cf g) = true -> js = []).

Definition pending (g : gw) : list pstr :=
  flat_map (fun j => match j with JLogic l => [l] | JSend _ => [] end) (g_jobs g).

Lemma pending_grows g g' ext js : grows g g' ext js -> pending g' = pending g.
Proof.
  intros (_ & J & F & _). unfold pending. rewrite J, flat_map_app.
  replace (flat_map _ js) with (@nil pstr); [apply app_nil_r|].
  clear J. induction js as [|[l|l] js IH]; simpl; [reflexivity|discriminate|exact (IH F)].
Qed.

(* a step that calls no callback and leaves the flag: configuration and flag kept, only sends logged,
   only send jobs queued (none in the asyncio flavour) *)
Definition quiet (g g' : gw) : Prop :=
  g_cf g' = g_cf g /\ g_dirty g' = g_dirty g /\ exists ext js, grows g g' ext js /\ cbs ext = [].

(* the effect of processing one message: the tree afterwards is t'; al = Some m when alert(m) ran:
   then exactly one callback event (if a callback is configured), whose snapshot is the tree
   AFTER the update, and the flag is set (if persistence is enabled); otherwise none / kept *)
Definition eff (g g' : gw) (t' : tree) (al : option msg) : Prop :=
  g_cf g' = g_cf g /\ proj (g_sensors g') = t' /\
  g_dirty g' = match al with
               | Some _ => if cf_persist (g_cf g) then true else g_dirty g
               | None => g_dirty g
               end /\
  exists ext js, grows g g' ext js /\
    cbs ext = match al with
              | Some m => if cf_callback (g_cf g) then [ECallback m t'] else []
              | None => []
              end.

Lemma eff_cf g g' t a : eff g g' t a -> g_cf g' = g_cf g.
Proof. intros (C & _). exact C. Qed.
Lemma eff_tree g g' t a : eff g g' t a -> proj (g_sensors g') = t.
Proof. intros (_ & T & _). exact T. Qed.
Lemma eff_dirty g g' t a : eff g g' t a ->
  g_dirty g' = match a with Some _ => if cf_persist (g_cf g) then true else g_dirty g | None => g_dirty g end.
Proof. intros (_ & _ & D & _). exact D. Qed.
Lemma eff_log g g' t a : eff g g' t a ->
  exists ext, g_log g' = g_log g ++ ext /\
    cbs ext = match a with Some m => if cf_callback (g_cf g) then [ECallback m t] else [] | None => [] end.
Proof. intros (_ & _ & _ & ext & js & (L & _) & B). exists ext. split; assumption. Qed.

Definition still (g g' : gw) : Prop := quiet g g' /\ proj (g_sensors g') = proj (g_sensors g).

Lemma grows_trans g1 g2 g3 e1 j1 e2 j2 : g_cf g2 = g_cf g1 ->
  grows g1 g2 e1 j1 -> grows g2 g3 e2 j2 -> grows g1 g3 (e1 ++ e2) (j1 ++ j2).
Proof.
  intros C (L1 & J1 & F1 & A1) (L2 & J2 & F2 & A2). rewrite C in A2.
  repeat split.
  - rewrite L2, L1, app_assoc. reflexivity.
  - rewrite J2, J1, app_assoc. reflexivity.
  - rewrite forallb_app, F1, F2. reflexivity.
  - intro A. rewrite (A1 A), (A2 A). reflexivity.
Qed.

Lemma quiet_trans g1 g2 g3 : quiet g1 g2 -> quiet g2 g3 -> quiet g1 g3.
Proof.
  intros (C1 & D1 & e1 & j1 & G1 & B1) (C2 & D2 & e2 & j2 & G2 & B2).
  split; [congruence|]. split; [congruence|]. exists (e1 ++ e2), (j1 ++ j2).
  split; [eapply grows_trans; eassumption|]. rewrite cbs_app, B1, B2. reflexivity.
Qed.

Lemma quiet_intro g g' e js : g_cf g' = g_cf g -> g_dirty g' = g_dirty g -> g_log g' = g_log g ++ e ->
  g_jobs g' = g_jobs g ++ js -> cbs e = [] -> forallb is_jsend js = true ->
  (cf_async (g_cf g) = true -> js = []) -> quiet g g'.
Proof. intros C D L J B F A. split; [exact C|]. split; [exact D|]. exists e, js. repeat split; assumption. Qed.

Lemma quiet_frame g g' : g_cf g' = g_cf g -> g_dirty g' = g_dirty g -> g_log g' = g_log g ->
  g_jobs g' = g_jobs g -> quiet g g'.
Proof.
  intros C D L J. apply (quiet_intro g g' [] []); rewrite ?app_nil_r; auto.
Qed.

Lemma quiet_refl g : quiet g g.
Proof. apply quiet_frame; reflexivity. Qed.
Lemma quiet_put_node g nd : quiet g (put_node g nd).
Proof. apply quiet_frame; reflexivity. Qed.
Lemma quiet_set_ota g o : quiet g (set_ota g o).
Proof. apply quiet_frame; reflexivity. Qed.
Lemma quiet_set_metric g b : quiet g (set_metric g b).
Proof. apply quiet_frame; reflexivity. Qed.
Lemma quiet_add_sensor g k : quiet g (add_sensor g k).
Proof. unfold add_sensor. destruct (zhas k (g_sensors g)); apply quiet_frame; reflexivity. Qed.

Lemma quiet_emit g e : is_cb e = false -> quiet g (emit g e).
Proof.
  intro E. apply (quiet_intro g _ [e] []); try reflexivity; [symmetry; apply app_nil_r|].
  unfold cbs. simpl. rewrite E. reflexivity.
Qed.

Lemma quiet_send g l : quiet g (send g l).
Proof. unfold send. destruct l; [apply quiet_refl|apply quiet_emit; reflexivity]. Qed.

Lemma quiet_add_job_send g l : quiet g (add_job_send g l).
Proof.
  unfold add_job_send. destruct (cf_async (g_cf g)) eqn:A; [apply quiet_send|].
  apply (quiet_intro g _ [] [JSend l]); try reflexivity; [symmetry; apply app_nil_r|congruence].
Qed.

Lemma sensors_send g l : g_sensors (send g l) = g_sensors g.
Proof. destruct (send_frame g l) as (H & _). exact H. Qed.
Lemma sensors_alert g m : g_sensors (alert g m) = g_sensors g.
Proof. destruct (alert_frame g m) as (H & _). exact H. Qed.

Lemma still_refl g : still g g.
Proof. split; [apply quiet_refl|reflexivity]. Qed.

Lemma still_trans g1 g2 g3 : still g1 g2 -> still g2 g3 -> still g1 g3.
Proof. intros [Q1 E1] [Q2 E2]. split; [eapply quiet_trans; eassumption|congruence]. Qed.

Lemma still_set_ota g o : still g (set_ota g o).
Proof. split; [apply quiet_set_ota|reflexivity]. Qed.

Lemma still_send g l : still g (send g l).
Proof. split; [apply quiet_send|rewrite sensors_send; reflexivity]. Qed.

Lemma still_add_job_send g l : still g (add_job_send g l).
Proof.
  split; [apply quiet_add_job_send|]. destruct (add_job_send_frame g l) as (H & _). rewrite H. reflexivity.
Qed.

Lemma still_fold_add_job_send ls g : still g (fold_left add_job_send ls g).
Proof.
  apply fold_left_preserves; [|apply still_refl].
  intros a l S. eapply still_trans; [exact S|apply still_add_job_send].
Qed.

Lemma eff_of_quiet g g' : quiet g g' -> eff g g' (proj (g_sensors g')) None.
Proof.
  intros (C & D & ext & js & G & B). split; [exact C|]. split; [reflexivity|]. split; [exact D|].
  exists ext, js. split; assumption.
Qed.

Lemma eff_of_still g g' : still g g' -> eff g g' (proj (g_sensors g)) None.
Proof. intros [Q <-]. apply eff_of_quiet, Q. Qed.

Lemma eff_quiet_before g g1 g' t al : quiet g g1 -> eff g1 g' t al -> eff g g' t al.
Proof.
  intros (C1 & D1 & e1 & j1 & G1 & B1) (C2 & T & D2 & e2 & j2 & G2 & B2).
  split; [congruence|]. split; [exact T|]. split; [rewrite D2, C1, D1; reflexivity|].
  exists (e1 ++ e2), (j1 ++ j2). split; [eapply grows_trans; eassumption|].
  rewrite cbs_app, B1, B2, C1. reflexivity.
Qed.

Lemma eff_still_after g g1 g' t al : eff g g1 t al -> still g1 g' -> eff g g' t al.
Proof.
  intros (C1 & T & D1 & e1 & j1 & G1 & B1) [(C2 & D2 & e2 & j2 & G2 & B2) P].
  split; [congruence|]. split; [congruence|]. split; [congruence|].
  exists (e1 ++ e2), (j1 ++ j2). split; [eapply grows_trans; eassumption|].
  rewrite cbs_app, B1, B2, app_nil_r. reflexivity.
Qed.

Lemma eff_pending g g' t a : eff g g' t a -> pending g' = pending g.
Proof. intros (_ & _ & _ & ext & js & G & _). exact (pending_grows _ _ _ _ G). Qed.

(* Gateway.alert: the one place where the callback is invoked and the flag is set *)
Lemma eff_alert g m : eff g (alert g m) (proj (g_sensors g)) (Some m).
Proof.
  unfold eff, alert. destruct (cf_callback (g_cf g)) eqn:CB, (cf_persist (g_cf g)) eqn:PE;
    (split; [reflexivity|]); (split; [reflexivity|]); (split; [reflexivity|]).
  1,2: exists [ECallback m (proj (g_sensors g))], [].
  3,4: exists [], [].
  all: split; [|reflexivity]; unfold grows; cbn; rewrite ?app_nil_r; repeat split; reflexivity.
Qed.

Lemma eff_cast g g' t t' al al' : eff g g' t al -> t = t' -> al = al' -> eff g g' t' al'.
Proof. intros E -> ->. exact E. Qed.

(* the TreeMeaning.kind of an internal handler *)
Definition ikind (h : hfun) : kind :=
  match h with
  | HBattery => KBattery | HSketchName => KSketchName | HSketchVersion => KSketchVersion
  | HHeartbeat | HHeartbeat22 => KHeartbeat
  | HIdRequest => KIdRequest
  | HGatewayReady | HGatewayReady20 => KGatewayReady
  | _ => KOther
  end.
Definition okind (o : option hfun) : kind := match o with Some h => ikind h | None => KOther end.

Definition same_kind (a b : kind) : bool :=
  match a, b with
  | KNodePres, KNodePres | KChildPres, KChildPres | KSet, KSet | KBattery, KBattery
  | KSketchName, KSketchName | KSketchVersion, KSketchVersion | KHeartbeat, KHeartbeat
  | KIdRequest, KIdRequest | KGatewayReady, KGatewayReady | KStreamReq, KStreamReq | KOther, KOther => true
  | _, _ => false
  end.
Lemma same_kind_eq a b : same_kind a b = true -> a = b.
Proof. destruct a, b; simpl; intro H; try discriminate H; reflexivity. Qed.

(* stream sub-types resolve to the two OTA request handlers (0, 2) or to nothing *)
Definition stream_ok (o : option hfun) (s : Z) : bool :=
  match o with
  | Some HFwConfigReq | Some HFwReq => (s =? 0) || (s =? 2)
  | None => negb ((s =? 0) || (s =? 2))
  | _ => false
  end.

(* the two sweeps over the resolved registry, per version *)
Lemma internal_kinds v :
  forallb (fun s => same_kind (okind (sub_lookup (resolved v) 3 s)) (internal_kind v s)) (zrange (max_sub v 3)) = true.
Proof. destruct v; vm_compute; reflexivity. Qed.

Lemma stream_handlers v : forallb (fun s => stream_ok (sub_lookup (resolved v) 4 s) s) (zrange (max_sub v 4)) = true.
Proof. destruct v; vm_compute; reflexivity. Qed.

Lemma registry_resolution v s :
  (between 0 (max_sub v 3) s = true -> okind (sub_handler (tab_of v) 3 s) = internal_kind v s) /\
  (between 0 (max_sub v 4) s = true -> stream_ok (sub_handler (tab_of v) 4 s) s = true) /\
  vt_max_node (tab_of v) = 254.
Proof.
  pose proof (internal_kinds v) as I. pose proof (stream_handlers v) as S. rewrite forallb_forall in I, S.
  rewrite !sub_handler_resolved.
  split; [|split; [|apply k_max_node]]; intro B; [apply same_kind_eq, I|apply S];
    apply In_zrange; unfold between in B; lia.
Qed.

(* the verdict of Gateway.is_sensor, read off the tree *)
Definition verdict (t : tree) (n : Z) (cid : option Z) : bool :=
  match cid with Some c => known_child t n c | None => known t n end.

Section Effects.
  Variable orc : oracles.
  Variable clock : Z.

  Notation P g := (proj (g_sensors g)).

  Lemma known_proj g k : known (P g) k = zhas k (g_sensors g).
  Proof. unfold known. rewrite proj_zmap. apply zhas_zmap. Qed.

  Lemma assoc_proj g k : zassoc k (P g) = option_map proj_node (get_node g k).
  Proof. rewrite proj_zmap. apply zassoc_zmap. Qed.

  Lemma children_proj nd : pn_children (proj_node nd) = zmap proj_child (n_children nd).
  Proof. reflexivity. Qed.

  Lemma verdict_proj g k cid : verdict (P g) k cid = registered g k cid.
  Proof.
    unfold registered. destruct cid as [c|]; [|apply known_proj]. unfold verdict, known_child. rewrite assoc_proj.
    destruct (get_node g k) as [nd|]; [|reflexivity]. cbn [option_map]. rewrite children_proj. apply zhas_zmap.
  Qed.

  Lemma proj_put_node g k nd nd' f : Inv orc g -> get_node g k = Some nd -> n_id nd' = n_id nd ->
    proj_node nd' = f (proj_node nd) -> P (put_node g nd') = tupd k f (P g).
  Proof.
    intros I G E F. pose proof (keyed_get g k nd (Inv_keyed orc g I) G) as K.
    unfold put_node. cbn [g_sensors set_sensors]. rewrite E, K.
    rewrite proj_zmap, zset_zmap, F. unfold tupd. rewrite assoc_proj, G. reflexivity.
  Qed.

  Lemma still_put_node g k nd nd' : Inv orc g -> get_node g k = Some nd -> n_id nd' = n_id nd ->
    proj_node nd' = proj_node nd -> still g (put_node g nd').
  Proof.
    intros I G E F. split; [apply quiet_put_node|].
    rewrite (proj_put_node g k nd nd' (fun n => n) I G E F).
    apply (tupd_id _ _ _ (proj_node nd)); [|reflexivity]. rewrite assoc_proj, G. reflexivity.
  Qed.

  Lemma proj_add_sensor g k : P (add_sensor g k) = tadd k (P g).
  Proof.
    unfold add_sensor, tadd. change (zhas k (P g)) with (known (P g) k). rewrite known_proj.
    destruct (zhas k (g_sensors g)); [reflexivity|].
    cbn [g_sensors set_sensors]. rewrite proj_zmap. apply map_app.
  Qed.

  Lemma route_still g m : Inv orc g -> still g (fst (route g m)).
  Proof.
    intro I. destruct (route_cases g m) as [(nd & G & _ & ->)|[-> _]]; [|apply still_refl].
    eapply still_put_node; [exact I|exact G|reflexivity|reflexivity].
  Qed.

  Lemma route_opt_still g r : Inv orc g -> still g (fst (route_opt g r)).
  Proof. destruct r; simpl; [apply route_still|intros _; apply still_refl]. Qed.

  (* whatever is_sensor answers, it has at most routed a presentation request *)
  Lemma is_sensor_still g sid cid g1 b : Inv orc g -> is_sensor g sid cid = Ok (g1, b) -> still g g1.
  Proof.
    intros I. unfold is_sensor.
    destruct (negb _ && node_id_ok sid && cf_ge20 (g_cf g)); [|intros [= <- <-]; apply still_refl].
    destruct (sassoc (s2p "I_PRESENTATION") (vt_internal_members (tab g))) as [ip|]; [|discriminate].
    pose proof (route_still g (mkMsg sid system_child_id (vt_internal (tab g)) 0 ip []) I) as Q.
    destruct (route g (mkMsg sid system_child_id (vt_internal (tab g)) 0 ip [])) as [g0 [m'|]];
      cbn [fst] in Q; intros [= <- <-]; [|exact Q].
    eapply still_trans; [exact Q|apply still_add_job_send].
  Qed.

  Lemma handle_smartsleep_still g k nd g2 : Inv orc g -> get_node g k = Some nd ->
    handle_smartsleep orc g nd = Ok g2 -> still g g2.
  Proof.
    intros I G. unfold handle_smartsleep.
    destruct (flush_children_pre orc _ _ _) as [sets [e|]]; [discriminate|].
    intro H. inversion H.
    eapply still_trans; [apply (still_put_node g k nd (with_queue (init_smart_sleep nd) []) I G); reflexivity|].
    eapply still_trans; apply still_fold_add_job_send.
  Qed.

  Definition alk (k : kind) (t : tree) (m : msg) : option msg := if alerting_k k t m then Some m else None.

  (* what holds of the state a handler returns *)
  Definition post (Q : gw -> Prop) (r : res (gw * option msg)) : Prop := forall g' rep, r = Ok (g', rep) -> Q g'.

  Definition hres_eff (g : gw) (r : res (gw * option msg)) (k : kind) (m : msg) : Prop :=
    post (fun g' => eff g g' (meaning (safe_version orc) k (P g) m) (alk k (P g) m)) r.

  (* the two outcomes of a handler: nothing, when the message does not alert ... *)
  Lemma eff_unalerting g g' k m : still g g' -> alerting_k k (P g) m = false ->
    eff g g' (meaning (safe_version orc) k (P g) m) (alk k (P g) m).
  Proof.
    intros S A. unfold alk. rewrite A, (meaning_unchanged _ _ _ _ A). apply eff_of_still, S.
  Qed.

  (* ... or alert after the update, when it does *)
  Lemma eff_alerting g g1 k m : quiet g g1 -> P g1 = meaning (safe_version orc) k (P g) m ->
    alerting_k k (P g) m = true ->
    eff g (alert g1 m) (meaning (safe_version orc) k (P g) m) (alk k (P g) m).
  Proof. intros Q <- A. unfold alk. rewrite A. eapply eff_quiet_before; [exact Q|apply eff_alert]. Qed.

  (* GwLemmas.known_node_frame_reg for a postcondition on the returned state: an unknown node: stop, after at
     most a presentation request; else fetch the node and go on from the unchanged state *)
  Lemma known_node_post g sid cid (body : gw -> node -> res (gw * option msg)) (Q : gw -> Prop) : Inv orc g ->
    (verdict (P g) sid cid = false -> forall g1, still g g1 -> Q g1) ->
    (forall nd, get_node g sid = Some nd -> verdict (P g) sid cid = true ->
                post Q (body g nd)) ->
    post Q (do gr <- is_sensor g sid cid;
            let '(g1, known) := gr in
            if negb known then Ok (g1, None)
            else match get_node g1 sid with None => Raise KeyError | Some nd => body g1 nd end).
  Proof.
    intros I HU HK. rewrite verdict_proj in HU, HK.
    apply (known_node_frame_reg (post Q)); [intros e _ g' rep H; discriminate H| |exact HK].
    intros g1 E V g' rep [= <- <-]. exact (HU V _ (is_sensor_still _ _ _ _ _ I E)).
  Qed.

  Ltac dobind H :=
    repeat match type of H with
           | bind ?x _ = Ok _ => let e := fresh "EB" in destruct x eqn:e; cbn [bind] in H; [|discriminate H]
           end.

  Lemma handle_presentation_eff g m : Inv orc g ->
    hres_eff g (handle_presentation orc g m) (if m_child m =? 255 then KNodePres else KChildPres) m.
  Proof.
    intros I. unfold hres_eff, handle_presentation. change system_child_id with 255.
    destruct (m_child m =? 255).
    - intros g' rep. destruct (get_node (add_sensor g (m_node m)) (m_node m)) as [nd|] eqn:G; [|discriminate].
      intro H. inversion H.
      apply eff_alerting; [eapply quiet_trans; [apply quiet_add_sensor|apply quiet_put_node]| |reflexivity].
      unfold meaning. rewrite <- proj_add_sensor.
      eapply proj_put_node; [apply Inv_add_sensor; exact I|exact G|reflexivity|reflexivity].
    - apply known_node_post; [exact I| |];
        [intros V g1 K; apply eff_unalerting; [exact K|]; unfold alerting_k; cbn [verdict] in V; rewrite V; reflexivity|].
      intros nd G V g' rep. cbn [verdict] in V.
      pose proof (verdict_proj g (m_node m) (Some (m_child m))) as KC. unfold registered in KC. rewrite G in KC.
      cbn [verdict] in KC.
      destruct (zhas (m_child m) (n_children nd)) eqn:ZC; intros [= <- <-].
      + apply eff_unalerting; [apply still_refl|]. unfold alerting_k. rewrite KC. apply andb_false_r.
      + apply eff_alerting; [apply quiet_put_node| |unfold alerting_k; rewrite KC, andb_true_r; exact V].
        unfold meaning. eapply proj_put_node; [exact I|exact G|reflexivity|]. cbn beta.
        rewrite children_proj, zhas_zmap, ZC. unfold with_pchildren, proj_node. cbn.
        rewrite map_app. reflexivity.
  Qed.

  Lemma proj_update_child nd c vt v ch : zassoc c (n_children nd) = Some ch ->
    n_id (update_child_value nd c vt v) = n_id nd /\ proj_node (update_child_value nd c vt v) =
    with_pchildren (proj_node nd)
      (zset c (mkPChild (c_id ch) (c_type ch) (c_desc ch) (zset vt (PS v) (c_values ch)))
            (zmap proj_child (n_children nd))).
  Proof.
    intro E. unfold update_child_value. rewrite E.
    destruct (zassoc c (n_new nd)); (split; [reflexivity|]); unfold with_pchildren, proj_node; cbn;
      change (map (fun kc => (fst kc, proj_child (snd kc)))) with (zmap proj_child);
      rewrite zset_zmap; reflexivity.
  Qed.

  Lemma handle_set_eff g m : Inv orc g -> hres_eff g (handle_set g m) KSet m.
  Proof.
    intros I. unfold hres_eff, handle_set. apply known_node_post; [exact I|intros V g1 K; apply eff_unalerting; assumption|].
    intros nd G V g' rep. pose proof V as ZC. rewrite verdict_proj in ZC. unfold registered in ZC. rewrite G in ZC. destruct (zhas_true _ _ ZC) as [ch CH].
    destruct (proj_update_child nd (m_child m) (m_sub m) (m_payload m) ch CH) as [ID PN].
    set (nd' := update_child_value nd (m_child m) (m_sub m) (m_payload m)) in *.
    intro H. assert (G' : g' = alert (put_node g nd') m).
    { destruct (n_reboot nd'); [|inversion H; reflexivity]. dobind H. inversion H. reflexivity. }
    subst g'. apply eff_alerting; [apply quiet_put_node| |exact V].
    unfold meaning. eapply proj_put_node; [exact I|exact G|exact ID|]. cbn beta.
    rewrite children_proj, zassoc_zmap, CH. exact PN.
  Qed.

  Lemma handle_req_still g m : Inv orc g -> post (still g) (handle_req g m).
  Proof.
    intros I. unfold handle_req. apply known_node_post; [exact I|auto|].
    intros nd _ _ g' rep.
    destruct (get_desired_value nd (m_child m) (m_sub m)); intro H; [dobind H|]; inversion H; apply still_refl.
  Qed.

  Lemma next_id_spec g : vt_max_node (tab g) = 254 ->
    next_id g = if tnext (P g) <=? 254 then Some (tnext (P g)) else None.
  Proof. intro M. unfold next_id. rewrite M, tnext_proj. reflexivity. Qed.

  Lemma zhas_add_sensor g k : zhas k (g_sensors (add_sensor g k)) = true.
  Proof. destruct (get_node_add_sensor g k) as [nd G]. unfold zhas. fold (get_node (add_sensor g k) k). rewrite G. reflexivity. Qed.

  (* handler.handle_id_request in terms of the tree: the next id is reserved at once, or nothing happens *)
  Lemma handle_id_request_spec g m : vt_max_node (tab g) = 254 ->
    handle_id_request g m =
    if tnext (P g) <=? 254 then
      do iresp <- internal_member g "I_ID_RESPONSE";
      do r <- copy m (mkRepl None None None (Some 0) (Some iresp) (Some (print (tnext (P g)))));
      Ok (alert (add_sensor g (tnext (P g))) m, Some r)
    else Ok (g, None).
  Proof.
    intro M. unfold handle_id_request. rewrite (next_id_spec g M).
    destruct (tnext (P g) <=? 254); [rewrite zhas_add_sensor|]; reflexivity.
  Qed.

  Lemma handle_id_request_eff g m : vt_max_node (tab g) = 254 -> hres_eff g (handle_id_request g m) KIdRequest m.
  Proof.
    intros M g' rep. rewrite (handle_id_request_spec g m M).
    destruct (tnext (P g) <=? 254) eqn:L; intro H.
    - dobind H. inversion H. apply eff_alerting; [apply quiet_add_sensor| |exact L].
      rewrite proj_add_sensor. unfold meaning, tadd. rewrite L, tnext_fresh. reflexivity.
    - inversion H. subst. apply eff_unalerting; [apply still_refl|exact L].
  Qed.

  (* battery level, sketch name, sketch version, heartbeat (2.2): one attribute of a known node *)
  Lemma node_attr_eff f pf k g m : Inv orc g ->
    (forall t, meaning (safe_version orc) k t m = tupd (m_node m) pf t) ->
    (forall t, alerting_k k t m = known t (m_node m)) ->
    (forall nd, n_id (f nd (m_payload m)) = n_id nd /\ proj_node (f nd (m_payload m)) = pf (proj_node nd)) ->
    hres_eff g (node_attr_handler f g m) k m.
  Proof.
    intros I Hm Ha Hf. unfold hres_eff, node_attr_handler.
    apply known_node_post; [exact I|intros V g1 K; apply eff_unalerting; [exact K|rewrite Ha; exact V]|].
    intros nd G V g' rep.
    destruct (Hf nd) as [ID PN].
    intros [= <- <-]. apply eff_alerting; [apply quiet_put_node| |rewrite Ha; exact V].
    rewrite Hm. eapply proj_put_node; [exact I|exact G|exact ID|exact PN].
  Qed.

  Lemma handle_heartbeat_eff g m : Inv orc g -> hres_eff g (handle_heartbeat_response orc g m) KHeartbeat m.
  Proof.
    intros I. unfold hres_eff, handle_heartbeat_response.
    apply known_node_post; [exact I|intros V g1 K; apply eff_unalerting; assumption|]. intros nd G V g' rep.
    destruct (handle_smartsleep_ok orc g (m_node m) nd I G) as (g2 & E2 & I2 & C2 & nd2 & G2).
    rewrite E2. cbn [bind]. rewrite G2.
    destruct (handle_smartsleep_still g (m_node m) nd g2 I G E2) as [Q2 P2].
    intro H. inversion H.
    apply eff_alerting; [eapply quiet_trans; [exact Q2|apply quiet_put_node]| |exact V].
    unfold meaning. rewrite <- P2. eapply proj_put_node; [exact I2|exact G2|reflexivity|reflexivity].
  Qed.

  Lemma handle_pre_sleep_still g m : Inv orc g -> post (still g) (handle_pre_sleep orc g m).
  Proof.
    intros I. unfold handle_pre_sleep. apply known_node_post; [exact I|auto|]. intros nd G _ g' rep.
    destruct (handle_smartsleep orc g nd) as [g2|] eqn:E2; cbn [bind]; [|discriminate].
    intros [= <- <-]. apply (handle_smartsleep_still g (m_node m) nd g2 I G E2).
  Qed.

  Lemma respond_fw_config_still g m g' rep : respond_fw_config g m = Ok (g', rep) -> still g g'.
  Proof.
    unfold respond_fw_config.
    destruct (fw_hex_to_int (m_payload m) 5); [|intros [= <- <-]; apply still_refl].
    destruct (ota_get_fw (g_ota g) (m_node m) true None) as [o' [[[t v] f]|]]; intro H; [dobind H|];
      inversion H; apply still_set_ota.
  Qed.

  Lemma respond_fw_still g m g' rep : respond_fw g m = Ok (g', rep) -> still g g'.
  Proof.
    unfold respond_fw.
    destruct (fw_hex_to_int (m_payload m) 3) as [[|rt [|rv [|rb [|x y]]]]|];
      try (intros [= <- <-]; apply still_refl).
    destruct (ota_get_fw (g_ota g) (m_node m) false (Some (rt, rv))) as [o' [[[t v] f]|]]; intro H; [dobind H|];
      inversion H; apply still_set_ota.
  Qed.

  (* the leaf handlers of kind KOther keep the tree (and do not alert) *)
  Lemma run_leaf_still h g m : Inv orc g -> ikind h = KOther -> post (still g) (run_leaf orc clock h g m).
  Proof.
    intros I K g' rep. destruct h; try discriminate K; unfold run_leaf; try discriminate; intro H.
    - (* HFwConfigReq *) exact (respond_fw_config_still _ _ _ _ H).
    - (* HFwReq *) exact (respond_fw_still _ _ _ _ H).
    - (* HConfig *) unfold handle_config in H. dobind H. inversion H. apply still_refl.
    - (* HTime *) unfold handle_time in H. dobind H. inversion H. apply still_refl.
    - (* HLog *) inversion H. apply still_refl.
    - (* HDiscoverResponse *) unfold handle_discover_response in H. dobind H. inversion H. subst.
      destruct p as [g1 b]. exact (is_sensor_still _ _ _ _ _ I EB).
    - (* HPreSleep *) exact (handle_pre_sleep_still _ _ I _ _ H).
  Qed.

  Lemma run_leaf_eff h g m : Inv orc g -> vt_max_node (tab g) = 254 ->
    hres_eff g (run_leaf orc clock h g m) (ikind h) m.
  Proof.
    intros I M. destruct (ikind h) eqn:K;
      try (intros g' rep H; apply eff_unalerting; [exact (run_leaf_still h g m I K g' rep H)|reflexivity]);
      destruct h; try discriminate K; unfold run_leaf.
    - (* HBattery *) eapply (node_attr_eff set_batt); [exact I|reflexivity|reflexivity|intro; split; reflexivity].
    - (* HSketchName *) eapply (node_attr_eff set_skname); [exact I|reflexivity|reflexivity|intro; split; reflexivity].
    - (* HSketchVersion *) eapply (node_attr_eff set_skver); [exact I|reflexivity|reflexivity|intro; split; reflexivity].
    - (* HHeartbeat *) apply handle_heartbeat_eff. exact I.
    - (* HHeartbeat22 *) eapply (node_attr_eff set_hb); [exact I|reflexivity|reflexivity|intro; split; reflexivity].
    - (* HIdRequest *) apply handle_id_request_eff. exact M.
    - (* HGatewayReady *) intros g' rep [= <- <-]. apply eff_alerting; [apply quiet_refl|reflexivity|reflexivity].
    - (* HGatewayReady20 *) intros g' rep H. unfold handle_gateway_ready_20 in H. dobind H. inversion H.
      apply eff_alerting; [apply quiet_refl|reflexivity|reflexivity].
  Qed.

  Lemma handle_internal_eff g m : Inv orc g -> vt_max_node (tab g) = 254 ->
    hres_eff g (handle_internal orc clock g m) (okind (sub_handler (tab g) (m_type m) (m_sub m))) m.
  Proof.
    intros I M. unfold handle_internal.
    destruct (sub_handler (tab g) (m_type m) (m_sub m)) as [h|]; [apply run_leaf_eff; assumption|].
    intros g' rep [= <- <-]. apply eff_unalerting; [apply still_refl|reflexivity].
  Qed.

  Lemma handle_stream_eff g m : Inv orc g ->
    stream_ok (sub_handler (tab g) (m_type m) (m_sub m)) (m_sub m) = true ->
    hres_eff g (handle_stream orc clock g m) (if (m_sub m =? 0) || (m_sub m =? 2) then KStreamReq else KOther) m.
  Proof.
    intros I SO g' rep. unfold handle_stream.
    destruct (is_sensor g (m_node m) None) as [[g1 b]|e] eqn:E; cbn [bind]; [|discriminate].
    destruct (is_sensor_verdict _ _ _ _ _ E) as [V K]. rewrite <- verdict_proj in V.
    destruct b; cbn [negb].
    - rewrite (K eq_refl). destruct (sub_handler (tab g) (m_type m) (m_sub m)) as [h|]; cbn [stream_ok] in SO.
      + assert (HQ : post (still g) (run_leaf orc clock h g m))
          by (apply run_leaf_still; [exact I|destruct h; try discriminate SO; reflexivity]).
        replace ((m_sub m =? 0) || (m_sub m =? 2)) with true by (destruct h; try discriminate SO; symmetry; exact SO).
        destruct (run_leaf orc clock h g m) as [[g2 resp]|]; cbn [bind]; [|discriminate].
        destruct (HQ g2 resp eq_refl) as [Q2 P2].
        intros [= <- <-]. apply eff_alerting; [exact Q2|exact P2|exact V].
      + apply negb_true_iff in SO. rewrite SO.
        intros [= <- <-]. apply eff_unalerting; [apply still_refl|reflexivity].
    - intros [= <- <-]. apply eff_unalerting; [exact (is_sensor_still _ _ _ _ _ I E)|].
      destruct ((m_sub m =? 0) || (m_sub m =? 2)); [exact V|reflexivity].
  Qed.
End Effects.

Definition cfg_is (v : ver) (cf : config) : Prop := cf_tab cf = tab_of v /\ cf_ge20 cf = ge20 v.

Lemma cfg_is_ok v cf : cfg_is v cf -> cfg_ok cf.
Proof. intros [T G]. exists v. split; assumption. Qed.

Section Logic.
  Variable orc : oracles.
  Variable clock : Z.

  Notation P g := (proj (g_sensors g)).

  Lemma validated_ranges v g m : cfg_is v (g_cf g) -> gvalidate orc g m = true ->
    between 0 255 (m_node m) = true /\ between 0 4 (m_type m) = true /\
    between 0 (max_sub v (m_type m)) (m_sub m) = true.
  Proof.
    intros [T _] V. unfold gvalidate, tab in V. rewrite T, validate_conforms in V. unfold spec_accepts in V.
    repeat match type of V with _ && _ = true => apply andb_true_iff in V as [V ?] end.
    repeat split; assumption.
  Qed.

  Lemma max_node_cfg v g : cfg_is v (g_cf g) -> vt_max_node (tab g) = 254.
  Proof. intros [T _]. unfold tab. rewrite T. apply k_max_node. Qed.

  Definition ml (v : ver) (g : gw) : tree -> pstr -> tree :=
    meaning_line (safe_version orc) (gvalidate orc g) v.
  Definition al (v : ver) (g : gw) : tree -> pstr -> option msg := alerted_line (gvalidate orc g) v.

  Theorem logic_eff v g l g' r : cfg_is v (g_cf g) -> Inv orc g ->
    logic orc clock g l = Ok (g', r) -> eff g g' (ml v g (P g) l) (al v g (P g) l).
  Proof.
    intros CI I. pose proof (cfg_is_ok _ _ CI) as C. pose proof (facts_of_cfg g C) as F.
    unfold ml, al, meaning_line, alerted_line.
    destruct (decode l) as [m|] eqn:D;
      [|rewrite (rejected_is_noop orc clock g l (or_introl D)); intros [= <- <-]; apply eff_of_quiet, quiet_refl].
    pose proof (decoded_payload_wire_ok _ _ D) as W.
    destruct (gvalidate orc g m) eqn:V; cbn [andb];
      [|rewrite (rejected_is_noop orc clock g l (or_intror (ex_intro _ m (conj D V))));
        intros [= <- <-]; apply eff_of_quiet, quiet_refl].
    destruct (validated_ranges v g m CI V) as (BN & BT & BS).
    pose proof (max_node_cfg v g CI) as M.
    change (if alerting v (P g) m then Some m else None) with (alk (kind_of v m) (P g) m).
    assert (HH : exists h, type_handler (tab g) (m_type m) = Some h /\
                           hres_eff orc g (run_handler orc clock h g m) (kind_of v m) m).
    { destruct CI as [T GE]. unfold kind_of.
      destruct (type_handler_cases g (m_type m) F BT) as [[Ty E]|[[Ty E]|[[Ty E]|[[Ty E]|[Ty E]]]]];
        rewrite Ty in BS, E |- *; cbn [Z.eqb Pos.eqb];
        eexists; (split; [exact E|]); unfold run_handler.
      - apply handle_presentation_eff. exact I.
      - apply handle_set_eff. exact I.
      - intros g1 rep H. apply eff_unalerting; [exact (handle_req_still orc g m I g1 rep H)|reflexivity].
      - rewrite <- (proj1 (registry_resolution v (m_sub m)) BS).
        pose proof (handle_internal_eff orc clock g m I M) as HE. unfold tab in HE. rewrite T, Ty in HE. exact HE.
      - pose proof (proj1 (proj2 (registry_resolution v (m_sub m))) BS) as SO.
        apply handle_stream_eff; [exact I|]. unfold tab. rewrite T, Ty. exact SO. }
    destruct HH as (h & E & HE). destruct (run_handler_ok orc clock g m h F I W BT E) as (g1 & rep & E1 & I1 & C1).
    rewrite (logic_handler orc clock g l m h D V E), E1. cbn [bind].
    pose proof (route_opt_still orc g1 rep I1) as Q2.
    destruct (route_opt g1 rep) as [g2 routed]. cbn [fst] in Q2.
    intros [= <- <-]. eapply eff_still_after; [apply (HE _ _ E1)|exact Q2].
  Qed.

  (* controller calls: tree, flag and callbacks untouched *)
  Lemma set_child_value_still g sid cid vt v mt a g' : Inv orc g ->
    set_child_value orc g sid cid vt v mt a = Ok g' -> still g g'.
  Proof.
    intros I. unfold set_child_value. revert g'.
    apply (known_node_frame (fun r => forall g', r = Ok g' -> still g g')); [discriminate| |].
    { intros g1 E g' [= <-]. exact (is_sensor_still _ _ _ _ _ _ I E). }
    intros nd G g'. destruct (sleeping nd).
    - destruct (create_set_message orc g (n_id nd) cid vt v None None); cbn [bind]; [|discriminate].
      destruct (zassoc cid (n_new nd)) as [dv|]; [|discriminate].
      destruct (validate_child_state orc nd cid vt v); cbn [bind]; [|discriminate].
      destruct (vt_int vt) as [vti|]; [|discriminate].
      intros [= <-]. eapply still_put_node; [exact I|exact G|reflexivity|reflexivity].
    - destruct (create_set_message orc g (n_id nd) cid vt v mt a); cbn [bind]; [|discriminate].
      intros [= <-]. apply still_add_job_send.
  Qed.

  Lemma update_one_still t v g nid : keyed g -> still g (update_one t v g nid).
  Proof.
    intro KO. unfold update_one. destruct (get_node g nid) as [nd|] eqn:G; [|apply still_refl].
    unfold still, put_node. cbn [g_sensors set_sensors set_ota with_reboot n_id]. rewrite (keyed_get g nid nd KO G).
    split; [apply quiet_frame; reflexivity|].
    rewrite proj_zmap, zset_zmap. change (proj_node (with_reboot nd true)) with (proj_node nd).
    apply zset_same_id. rewrite assoc_proj, G. reflexivity.
  Qed.

  Lemma update_fold_still t v nids g : keyed g -> still g (fold_left (update_one t v) nids g).
  Proof.
    intro KO. apply (fold_left_preserves _ (fun a => still g a /\ keyed a)); [|split; [apply still_refl|exact KO]].
    intros a nid [S K]. split; [eapply still_trans; [exact S|apply update_one_still, K]|apply keyed_update_one, K].
  Qed.

  Lemma update_fw_still g nids fwt fwv bin g' : Inv orc g -> update_fw g nids fwt fwv bin = Ok g' -> still g g'.
  Proof.
    intros I H. destruct (update_fw_closed _ _ _ _ _ _ H) as [->|(t & v & fwl & _ & _ & G)]; [apply still_refl|].
    destruct G as [->| ->]; [|eapply still_trans; [|apply (update_fold_still t v nids (set_ota g _) (Inv_keyed orc g I))]];
      apply still_set_ota.
  Qed.

  Lemma controller_still g o : Inv orc g -> match o with Recv _ | Pump => False | _ => True end ->
    still g (step orc clock g o).
  Proof.
    intros I O. destruct o as [l| |s c vt x mt a|ns t x b|b]; try contradiction; cbn [step].
    - destruct (set_child_value orc g s c vt x mt a) eqn:E;
        [eapply set_child_value_still; eassumption|split; [apply quiet_emit|]; reflexivity].
    - destruct (update_fw g ns t x b) eqn:E;
        [eapply update_fw_still; eassumption|split; [apply quiet_emit|]; reflexivity].
    - split; [apply quiet_set_metric|reflexivity].
  Qed.

End Logic.
