(* C19 part 2: what is and what is not the same in the threaded and the asyncio
   job discipline, for every handler. *)
From Coq Require Import List NArith ZArith Bool Lia Permutation String.
From PMS Require Import Base.PyStr Base.PyInt Base.Exn Model.Codec Model.JobFlavours.
Import ListNotations.

Fixpoint pending_lines (q : list job) : list pstr :=
  match q with
  | [] => []
  | JLogic l :: r => l :: pending_lines r
  | JSend _ :: r => pending_lines r
  end.
Fixpoint pending_sends (q : list job) : list pstr :=
  match q with
  | [] => []
  | JLogic _ :: r => pending_sends r
  | JSend s :: r => s :: pending_sends r
  end.

Lemma pending_lines_app a b : pending_lines (a ++ b) = pending_lines a ++ pending_lines b.
Proof. induction a as [|[l|s] a IH]; simpl; rewrite ?IH; reflexivity. Qed.
Lemma pending_sends_app a b : pending_sends (a ++ b) = pending_sends a ++ pending_sends b.
Proof. induction a as [|[l|s] a IH]; simpl; rewrite ?IH; reflexivity. Qed.
Lemma pending_lines_sends l : pending_lines (map JSend l) = [].
Proof. induction l; simpl; auto. Qed.
Lemma pending_sends_sends l : pending_sends (map JSend l) = l.
Proof. induction l; simpl; congruence. Qed.
Lemma recvs_app a b : recvs (a ++ b) = recvs a ++ recvs b.
Proof. induction a as [|[l|] a IH]; simpl; rewrite ?IH; reflexivity. Qed.
Lemma recvs_pumps n : recvs (repeat Pump n) = [].
Proof. induction n; simpl; auto. Qed.

Section Proofs.
  Variable state : Type.
  Variable handler : state -> pstr -> state * option pstr * list pstr.
  Notation sync_step := (sync_step state handler).
  Notation sync_run := (sync_run state handler).
  Notation async_run := (async_run state handler).
  Notation final_state := (final_state state handler).
  Notation line_outputs := (line_outputs state handler).

  Lemma sync_run_app a : forall m b,
    sync_run m (a ++ b) =
    (fst (sync_run (fst (sync_run m a)) b), snd (sync_run m a) ++ snd (sync_run (fst (sync_run m a)) b)).
  Proof.
    induction a as [|o a IH]; intros m b.
    - simpl. destruct (sync_run m b); reflexivity.
    - simpl. destruct (sync_step m o) as [m1 o1]. rewrite IH.
      destruct (sync_run m1 a) as [m2 o2]. simpl.
      destruct (sync_run m2 b) as [m3 o3]. simpl. rewrite app_assoc. reflexivity.
  Qed.

  Lemma async_run_spec lines : forall st,
    async_run st lines = (final_state st lines, async_order (line_outputs st lines)).
  Proof.
    induction lines as [|l r IH]; intro st; [reflexivity|].
    simpl. unfold async_line. destruct (handler st l) as [[st' reply] nested].
    rewrite IH. reflexivity.
  Qed.

  Lemma final_state_app a : forall st b, final_state st (a ++ b) = final_state (final_state st a) b.
  Proof.
    induction a as [|l a IH]; intros st b; [reflexivity|].
    simpl. destruct (handler st l) as [[st' reply] nested]. apply IH.
  Qed.

  Lemma line_outputs_app a : forall st b,
    line_outputs st (a ++ b) = line_outputs st a ++ line_outputs (final_state st a) b.
  Proof.
    induction a as [|l a IH]; intros st b; [reflexivity|].
    simpl. destruct (handler st l) as [[st' reply] nested]. rewrite IH. reflexivity.
  Qed.

  (* what a run from m to m' with outputs out keeps: lines are consumed FIFO, the state
     is the async state of the consumed prefix d, emitted + still queued strings = what
     async emitted *)
  Definition consumed (m : sync state) (ops : list op) (m' : sync state) (out : list pstr) : Prop :=
    exists d,
      pending_lines (s_queue m) ++ recvs ops = d ++ pending_lines (s_queue m') /\
      s_state m' = final_state (s_state m) d /\
      Permutation (out ++ emits (pending_sends (s_queue m')))
                  (emits (pending_sends (s_queue m)) ++ async_order (line_outputs (s_state m) d)).

  Lemma sync_step_inv m o m1 o1 : sync_step m o = (m1, o1) -> consumed m [o] m1 o1.
  Proof.
    destruct m as [st q]. destruct o as [l|]; simpl.
    - intros [= <- <-]. exists []. simpl.
      rewrite pending_lines_app, pending_sends_app. simpl. rewrite !app_nil_r. auto.
    - destruct q as [|[l|s] q].
      + intros [= <- <-]. exists []. simpl. auto.
      + destruct (handler st l) as [[st' reply] nested] eqn:Hh.
        intros [= <- <-]. exists [l]. unfold async_order. simpl. rewrite Hh. simpl.
        rewrite pending_lines_app, pending_sends_app, pending_lines_sends, pending_sends_sends.
        unfold emits. rewrite !app_nil_r, flat_map_app. split; [reflexivity|]. split; [reflexivity|].
        rewrite (Permutation_app_comm (emit_opt reply)), <- !app_assoc. reflexivity.
      + intros [= <- <-]. exists []. simpl. rewrite !app_nil_r. auto.
  Qed.

  Lemma sync_run_inv ops : forall m m' out, sync_run m ops = (m', out) -> consumed m ops m' out.
  Proof.
    induction ops as [|o r IH]; intros m m' out H.
    - injection H as <- <-. exists []. simpl. rewrite !app_nil_r. auto.
    - simpl in H. destruct (sync_step m o) as [m1 o1] eqn:S1.
      destruct (sync_run m1 r) as [m2 o2] eqn:S2. injection H as <- <-.
      destruct (sync_step_inv _ _ _ _ S1) as [d1 [L1 [F1 P1]]].
      destruct (IH _ _ _ S2) as [d2 [L2 [F2 P2]]].
      exists (d1 ++ d2). split; [|split].
      + change (o :: r) with ([o] ++ r). rewrite recvs_app, app_assoc, L1, <- !app_assoc, L2. reflexivity.
      + rewrite final_state_app, <- F1. exact F2.
      + unfold async_order in *. rewrite line_outputs_app, flat_map_app.
        rewrite <- F1, <- app_assoc, P2, !app_assoc. apply Permutation_app_tail. exact P1.
  Qed.

  Theorem state_schedule_independent st0 ops :
    s_queue (fst (sync_run (mkSync st0 []) ops)) = [] ->
    s_state (fst (sync_run (mkSync st0 []) ops)) = fst (async_run st0 (recvs ops)) /\
    Permutation (snd (sync_run (mkSync st0 []) ops)) (snd (async_run st0 (recvs ops))).
  Proof.
    destruct (sync_run (mkSync st0 []) ops) as [m' out] eqn:R. cbn [fst snd]. intro Q.
    destruct (sync_run_inv _ _ _ _ R) as [d [L [F P]]].
    rewrite Q in L, P. simpl in L, P. rewrite !app_nil_r in *. subst d.
    rewrite async_run_spec in *. auto.
  Qed.

  Lemma drain_step m :
    (exists n, s_queue (fst (sync_run (fst (sync_step m Pump)) (repeat Pump n))) = []) ->
    exists n, s_queue (fst (sync_run m (repeat Pump n))) = [].
  Proof.
    intros [n H]. exists (S n). cbn [repeat JobFlavours.sync_run]. destruct (sync_step m Pump) as [m1 o1].
    cbn [fst] in H. destruct (sync_run m1 (repeat Pump n)). exact H.
  Qed.

  (* with k logic jobs pending: a pump on a send leaves k and shortens the queue (inner
     induction); a pump on a logic job leaves k - 1 and appends only sends (outer induction) *)
  Lemma pumps_drain k : forall q st, List.length (pending_lines q) = k ->
    exists n, s_queue (fst (sync_run (mkSync st q) (repeat Pump n))) = [].
  Proof.
    induction k as [|k IHk]; induction q as [|[l|s] q IHq]; intros st C;
      try discriminate C; try (exists O; reflexivity); apply drain_step; simpl.
    - apply IHq, C.
    - destruct (handler st l) as [[st' reply] nested]. apply IHk.
      rewrite pending_lines_app, pending_lines_sends, app_nil_r. simpl in C. lia.
    - apply IHq, C.
  Qed.

  Lemma pump_sends n : forall ns st,
    sync_run (mkSync st (map JSend ns)) (repeat Pump n) =
    (mkSync st (map JSend (skipn n ns)), emits (firstn n ns)).
  Proof.
    induction n as [|n IH]; intros ns st; [reflexivity|].
    destruct ns as [|s ns].
    - simpl. specialize (IH [] st). simpl in IH. rewrite IH.
      rewrite skipn_nil, firstn_nil. reflexivity.
    - simpl. rewrite IH. reflexivity.
  Qed.

  Lemma block_drained m l n st' reply nested :
    s_queue m = [] -> handler (s_state m) l = (st', reply, nested) ->
    s_queue (fst (sync_run m (block_ops (l, n)))) = [] ->
    sync_run m (block_ops (l, n)) = (mkSync st' [], emit_opt reply ++ emits nested).
  Proof.
    destruct m as [st q]. simpl. intros Q Hh. subst q. unfold block_ops. cbn [fst snd].
    destruct n as [|n].
    - simpl. discriminate.
    - simpl. rewrite Hh. rewrite pump_sends. cbn [fst s_queue]. intro E.
      assert (S : skipn n nested = []) by (destruct (skipn n nested); [reflexivity|discriminate]).
      rewrite S. rewrite <- (firstn_skipn n nested) at 2. rewrite S, app_nil_r. reflexivity.
  Qed.

  Theorem sync_drained_order bs : forall m,
    s_queue m = [] -> drained_between state handler m bs ->
    sync_run m (blocks_ops bs) =
    (mkSync (final_state (s_state m) (map fst bs)) [],
     sync_order (line_outputs (s_state m) (map fst bs))).
  Proof.
    induction bs as [|[l n] bs IH]; intros m Q D.
    - destruct m as [st q]. simpl in *. subst q. reflexivity.
    - cbn [drained_between] in D. destruct D as [D1 D2].
      destruct (handler (s_state m) l) as [[st' reply] nested] eqn:Hh.
      pose proof (block_drained m l n st' reply nested Q Hh D1) as B.
      rewrite B in D2. cbn [fst] in D2.
      unfold blocks_ops. cbn [flat_map]. rewrite sync_run_app. rewrite B. cbn [fst snd].
      fold (blocks_ops bs). rewrite (IH (mkSync st' []) eq_refl D2).
      cbn [fst snd s_state map]. simpl. rewrite Hh. reflexivity.
  Qed.
End Proofs.

Lemma exclusive_same_order outs : Forall exclusive outs -> sync_order outs = async_order outs.
Proof.
  intro F. induction F as [|o outs E F IH]; [reflexivity|].
  unfold sync_order, async_order in *. simpl. rewrite IH.
  destruct E as [E|E]; rewrite E; rewrite ?app_nil_r; reflexivity.
Qed.

(* drained between the lines: the threaded flavour emits reply-then-nested per
   line, the asyncio flavour nested-then-reply; identical sequences when no line
   does both (true of every handler of the library: is_sensor and the smart sleep
   flush are only reached on paths that return None - observed by the monitor) *)
Theorem flavour_equiv_drained state handler st0 bs :
  drained_between state handler (mkSync st0 []) bs ->
  s_state (fst (sync_run state handler (mkSync st0 []) (blocks_ops bs)))
    = fst (async_run state handler st0 (map fst bs)) /\
  snd (sync_run state handler (mkSync st0 []) (blocks_ops bs))
    = sync_order (line_outputs state handler st0 (map fst bs)) /\
  snd (async_run state handler st0 (map fst bs))
    = async_order (line_outputs state handler st0 (map fst bs)) /\
  (Forall exclusive (line_outputs state handler st0 (map fst bs)) ->
   snd (sync_run state handler (mkSync st0 []) (blocks_ops bs))
     = snd (async_run state handler st0 (map fst bs))).
Proof.
  intro D. rewrite (sync_drained_order state handler bs (mkSync st0 []) eq_refl D), async_run_spec.
  repeat split. apply exclusive_same_order.
Qed.

(* D11: the ordered claim fails with two lines pending *)
Lemma d11_sync :
  snd (sync_run mini_state mini_handler (mkSync d11_state []) d11_ops)
  = [s2p "1;255;3;0;6;M" ++ [nl]; s2p "1;255;3;0;19;" ++ [nl]].
Proof. vm_compute. reflexivity. Qed.
Lemma d11_async :
  snd (async_run mini_state mini_handler d11_state (recvs d11_ops))
  = [s2p "1;255;3;0;19;" ++ [nl]; s2p "1;255;3;0;6;M" ++ [nl]].
Proof. vm_compute. reflexivity. Qed.
Lemma d11_drained : s_queue (fst (sync_run mini_state mini_handler (mkSync d11_state []) d11_ops)) = [].
Proof. vm_compute. reflexivity. Qed.
Lemma d11_exclusive : Forall exclusive (line_outputs mini_state mini_handler d11_state d11_lines).
Proof.
  vm_compute. constructor; [left; reflexivity|]. constructor; [right; reflexivity|]. constructor.
Qed.

Theorem flavour_equiv_refuted :
  exists (state : Type) (handler : state -> pstr -> state * option pstr * list pstr)
         (st0 : state) (ops : list op),
    s_queue (fst (sync_run state handler (mkSync st0 []) ops)) = [] /\
    Forall exclusive (line_outputs state handler st0 (recvs ops)) /\
    snd (sync_run state handler (mkSync st0 []) ops) <> snd (async_run state handler st0 (recvs ops)).
Proof.
  exists mini_state, mini_handler, d11_state, d11_ops.
  split; [exact d11_drained|]. split; [exact d11_exclusive|].
  rewrite d11_sync, d11_async. vm_compute. discriminate.
Qed.

Theorem flavour_equiv_full_refuted : ~ flavour_equiv_full.
Proof.
  intro H. destruct flavour_equiv_refuted as (state & handler & st0 & ops & Q & _ & N).
  exact (N (H state handler st0 ops Q)).
Qed.
