(* C15 - proofs about the periodic-save machine of Model/SaveSched.v.
   For a good shape every event leaves the save alone, skips or begins one, or is a
   sub-step that fails, returns or goes on ([sub_spec], [step_spec]).  [step_cases]
   proves this together with the invariant [Inv]; the theorems read off the cases. *)
From Coq Require Import List ZArith Bool Arith Lia.
From PMS Require Import Model.SaveSched.
Import ListNotations.

(* a message that does not alert has changed nothing *)
Lemma apply_msg_silent : forall m t t', apply_msg m t = (t', false) -> t' = t.
Proof.
  intros m t t'; destruct m as [n ty | n c ty | n c vt v]; simpl.
  - destruct (has_node n t); discriminate.
  - destruct (has_node n t); [|congruence].
    destruct (find _ t) as [x|]; [|congruence].
    destruct (has_child c (n_children x)); congruence.
  - destruct (find _ t) as [x|]; [|congruence].
    destruct (has_child c (n_children x)); congruence.
Qed.

(* the serialiser stands at a node of [t], or inside that node at its child [ch] *)
Inductive ss_consistent (t : tree) : sstate -> Prop :=
| AtNode done nd post :
    t = done ++ nd :: post -> ss_consistent t (mkSS (length t) done None)
| AtChild done i ty post cdone ch cpost :
    t = done ++ mkNode i ty (cdone ++ ch :: cpost) :: post ->
    ss_consistent t (mkSS (length t) done (Some (mkCur i ty (length (cdone ++ ch :: cpost)) cdone))).

Definition ph_consistent (p : sphase) (t : tree) : Prop :=
  match p with PhOpen => True | PhRun ss => ss_consistent t ss | PhSync snap => snap = t end.

(* Ser steps still to run *)
Definition ss_left (ss : sstate) (t : tree) : nat :=
  objs t - objs (ss_done ss) - match ss_cur ss with None => 0 | Some c => S (length (cu_done c)) end.

Definition ph_left (p : sphase) (t : tree) : nat :=
  match p with PhOpen => objs t + 2 | PhRun ss => ss_left ss t + 1 | PhSync _ => 1 end.

Lemma nth_error_len_app : forall A (a : list A) x b, nth_error (a ++ x :: b) (length a) = Some x.
Proof. induction a; simpl; auto. Qed.

Lemma objs_app : forall a b, objs (a ++ b) = objs a + objs b.
Proof. induction a; simpl; intros; auto. rewrite IHa. lia. Qed.

Lemma ser_open_consistent : forall t, ph_consistent (ser_open t) t.
Proof. destruct t as [|nd post]; [reflexivity|]. exact (AtNode (nd :: post) [] nd post eq_refl). Qed.

Lemma ser_open_left : forall t, S (ph_left (ser_open t) t) = ph_left PhOpen t.
Proof. destruct t; unfold ph_left, ser_open, ss_left; simpl; lia. Qed.

(* an exact iterator at entry [x] of an unchanged dict goes on iff entries follow *)
Lemma pol_at : forall A pol (a : list A) x b, policy_ok pol ->
  pol (length (a ++ x :: b)) (length (a ++ x :: b)) (length a) = match b with [] => AEnd | _ => ANext end.
Proof.
  intros A pol a x b Hpol. rewrite Hpol, app_length.
  destruct (Nat.ltb_spec (S (length a)) (length a + length (x :: b))); destruct b; simpl in *; auto; lia.
Qed.

(* the last object of node [nd] has been written *)
Lemma finish_node_ok :
  forall pol done nd post cur, policy_ok pol ->
    length (n_children nd) = match cur with None => 0 | Some c => S (length (cu_done c)) end ->
    let t := done ++ nd :: post in
    let ss := mkSS (length t) done cur in
    match finish_node pol t ss nd with
    | Good ph' => ph_consistent ph' t /\ S (ph_left ph' t) = ph_left (PhRun ss) t
    | Fail _ => False
    end.
Proof.
  intros pol done nd post cur Hpol Hk t ss. unfold finish_node, ss. simpl. unfold t. rewrite pol_at by assumption.
  destruct post as [|nd2 post2]; split.
  - reflexivity.
  - unfold ph_left, ss_left. simpl. rewrite objs_app. simpl. lia.
  - apply (AtNode _ (done ++ [nd]) nd2 post2). rewrite <- app_assoc. reflexivity.
  - unfold ph_left, ss_left. simpl. rewrite !objs_app. simpl. lia.
Qed.

(* on an unchanged tree a Ser step succeeds and leaves one step fewer *)
Lemma ser_step_progress :
  forall pol t ss, policy_ok pol -> ss_consistent t ss ->
    match ser_step pol t ss with
    | Good ph' => ph_consistent ph' t /\ S (ph_left ph' t) = ph_left (PhRun ss) t
    | Fail _ => False
    end.
Proof.
  intros pol t ss Hpol [done nd post Ht | done i ty post cdone ch cpost Ht];
    unfold ser_step; simpl; subst t; rewrite nth_error_len_app; simpl.
  - destruct nd as [i ty [|ch cpost]]; simpl.
    + apply finish_node_ok; auto.
    + split.
      * apply (AtChild _ done i ty post [] ch cpost); reflexivity.
      * unfold ph_left, ss_left. simpl. rewrite objs_app. simpl. lia.
  - rewrite nth_error_len_app, pol_at by assumption.
    destruct cpost as [|ch2 cpost2].
    + apply finish_node_ok; auto. simpl. rewrite app_length. simpl. lia.
    + change (ch :: ch2 :: cpost2) with ([ch] ++ ch2 :: cpost2). rewrite app_assoc. split.
      * apply (AtChild _ done i ty post (cdone ++ [ch]) ch2 cpost2). reflexivity.
      * unfold ph_left, ss_left. simpl. rewrite objs_app. simpl. rewrite !app_length. simpl. lia.
Qed.

Lemma finish_node_fail : forall pol t ss nd f, finish_node pol t ss nd = Fail f -> f = FRuntimeError.
Proof. intros pol t ss nd f. unfold finish_node. destruct (pol _ _ _); congruence. Qed.

Lemma ser_step_fail_class : forall pol t ss f, ser_step pol t ss = Fail f -> f = FRuntimeError.
Proof.
  intros pol t ss f. unfold ser_step.
  destruct (nth_error t _) as [nd|]; [|congruence].
  destruct (ss_cur ss) as [c|].
  - destruct (nth_error (n_children nd) _); [|congruence].
    destruct (pol _ _ _); try congruence. apply finish_node_fail.
  - destruct (Nat.eqb _ 0); [apply finish_node_fail | congruence].
Qed.

(* a Ser step during a save: it succeeds as long as no message has come in ([d] = need_save) *)
Lemma ser_step_cases :
  forall pol t ss d, policy_ok pol -> (d = false -> ss_consistent t ss) ->
    match ser_step pol t ss with
    | Good ph' => d = false -> ph_consistent ph' t /\ S (ph_left ph' t) = ph_left (PhRun ss) t
    | Fail e => e = FRuntimeError /\ d = true
    end.
Proof.
  intros pol t ss d Hpol Hc.
  generalize (fun Hd => ser_step_progress pol t ss Hpol (Hc Hd)), (ser_step_fail_class pol t ss).
  destruct (ser_step pol t ss) as [ph'|e]; intros Hp Hf.
  - exact Hp.
  - split; [apply Hf; reflexivity | apply not_false_is_true; exact Hp].
Qed.

(* both CPython policies are exact on an unchanged dict *)
Lemma pol_json_ok : policy_ok pol_json.
Proof. intros n pos. unfold pol_json. rewrite Nat.eqb_refl. reflexivity. Qed.

Lemma pol_pickle_ok : policy_ok pol_pickle.
Proof.
  intros n pos. unfold pol_pickle. rewrite Nat.eqb_refl. simpl.
  destruct (Nat.eqb_spec n 1) as [->|]; [|reflexivity].
  destruct pos; reflexivity.
Qed.

Record good_facts (c : cfg) : Prop := mkGF {
  gf_order : sv_order (c_save c) = full_order;
  gf_pf : sv_protect_from (c_save c) <= 1;
  gf_os : covers (sv_handler (c_save c)) FOSError = true;
  gf_sets : sv_handler_sets (c_save c) = Some true;
  gf_fin : sv_finally_sets (c_save c) = None;
  gf_sched : forall fl, good_sched (sched_of c fl) = true;
  gf_alert : c_alert c = true
}.

Lemma sops_eqb_eq : forall a b, sops_eqb a b = true -> a = b.
Proof.
  induction a as [|x a IH]; destruct b as [|y b]; simpl; intro H; try discriminate; auto.
  apply andb_true_iff in H. destruct H as [H1 H2]. f_equal; auto.
  destruct x, y; simpl in H1; try discriminate; reflexivity.
Qed.

Lemma good_gives : forall c, good c = true -> good_facts c.
Proof.
  intros c H. unfold good, good_save in H. rewrite !andb_true_iff in H.
  destruct H as [[[[[[[Ho Hp] Hc] Hs] Hf] Hy] Ha] Hal].
  constructor; auto.
  - apply sops_eqb_eq. exact Ho.
  - apply Nat.leb_le. exact Hp.
  - destruct (sv_handler_sets (c_save c)) as [[|]|]; try discriminate; reflexivity.
  - destruct (sv_finally_sets (c_save c)); try discriminate; reflexivity.
  - destruct fl; assumption.
Qed.

Definition armed_after (o : owner) (a : bool) : bool := match o with OSched => true | OFinal => a end.

(* the state in which a save leaves the machine *)
Definition ended (o : owner) (s : st) (d : bool) (f : fsys) : st :=
  mkSt (s_tree s) d f (armed_after o (s_armed s)) (s_stopped s) None.

Lemma return_good :
  forall c fl o r s, good_facts c -> (r = None \/ r = Some FOSError \/ r = Some FRuntimeError) ->
    return_to_caller c fl o r s = ended o s (s_dirty s) (s_fs s).
Proof.
  intros c fl o r s G Hr. unfold return_to_caller, ended. destruct o; simpl; auto.
  pose proof (gf_sched c G fl) as Hg. unfold good_sched in Hg. rewrite !andb_true_iff in Hg.
  destruct Hg as [[[[[[Hos Hrt] Hres] Hre] _] _] _].
  destruct Hr as [-> | [-> | ->]]; rewrite ?Hos, ?Hrt, ?Hres, Hre; reflexivity.
Qed.

Lemma has_try_good : forall c, good_facts c -> has_try (c_save c) = true.
Proof.
  intros c G. unfold has_try. rewrite (gf_order c G). simpl.
  apply Nat.ltb_lt. pose proof (gf_pf c G). lia.
Qed.

Lemma settle_nil :
  forall c fl v idx s, good_facts c ->
    settle c fl v [] idx s = (ended (v_owner v) s (s_dirty s) (s_fs s), OEnded false false None false).
Proof.
  intros c fl v idx s G. simpl. rewrite (has_try_good c G), (gf_fin c G). simpl.
  rewrite return_good; auto.
Qed.

(* save_sensors up to its first sub-step, for a good shape *)
Lemma begin_good :
  forall c fl o denied s, good_facts c ->
    begin_save c fl o denied s =
    if negb (s_dirty s) then (ended o s (s_dirty s) (s_fs s), OEnded true false None false)
    else if denied then (ended o s (s_dirty s) (s_fs s), OEnded false true None false)
    else (mkSt (s_tree s) false (s_fs s) (s_armed s) (s_stopped s)
               (Some (mkSv o (is_some (f_main (s_fs s))) [SSer; SRenBak; SRenMain; SRemBak] 1 PhOpen []
                           (load (s_fs s)))),
          OProgress).
Proof.
  intros c fl o denied s G. unfold begin_save.
  rewrite (gf_order c G), !return_good by auto. reflexivity.
Qed.

(* a save in progress, by the sub-step it stands before, over tree [t], flag [d], files [f] *)
Inductive sv_inv (t : tree) (d : bool) (f : fsys) : sv -> Prop :=
| InvSer o ph snap l0 :
    load f = l0 -> (d = false -> ph_consistent ph t) ->
    sv_inv t d f (mkSv o (is_some (f_main f)) [SSer; SRenBak; SRenMain; SRemBak] 1 ph snap l0)
| InvRenBak o ph snap l0 :
    load f = l0 -> is_some (f_main f) = true -> (d = false -> snap = t) ->
    sv_inv t d f (mkSv o true [SRenBak; SRenMain; SRemBak] 2 ph snap l0)
| InvRenMain o ex ph snap l0 :
    load f = l0 -> (d = false -> snap = t) ->
    sv_inv t d f (mkSv o ex [SRenMain; SRemBak] 3 ph snap l0)
| InvRemBak o ph snap l0 :
    f_main f = Some snap -> (d = false -> snap = t) ->
    sv_inv t d f (mkSv o true [SRemBak] 4 ph snap l0).

(* sub-steps still to run in an undisturbed fault-free save *)
Definition sv_left (v : sv) (t : tree) : nat :=
  match v_todo v with
  | SSer :: _ => ph_left (v_ph v) t + 1 + (if v_exists v then 2 else 0)
  | SRenBak :: _ => 3
  | SRenMain :: _ => if v_exists v then 2 else 1
  | SRemBak :: _ => 1
  | _ => 0
  end.

Lemma sv_inv_load :
  forall t d f v, sv_inv t d f v ->
    load f = v_load0 v \/ (v_todo v = [SRemBak] /\ load f = Some (v_snap v)).
Proof.
  intros t d f v H; destruct H as [| | | o ph snap l0 Hm _]; simpl; auto.
  right. unfold load. rewrite Hm. auto.
Qed.

Lemma sv_inv_dirty : forall t t' d f v, sv_inv t d f v -> sv_inv t' true f v.
Proof. intros t t' d f v H; destruct H; constructor; auto; discriminate. Qed.

Lemma sv_left_pos : forall t d f v, sv_inv t d f v -> sv_left v t <> 0.
Proof. intros t d f v H; destruct H as [| |o [|]|]; unfold sv_left; simpl; lia. Qed.

(* one sub-step of the save [v] in state [s] under fault [f] *)
Inductive sub_spec (s : st) (v : sv) (f : fault) : st * outp -> Prop :=
| SubFail cls r :   (* RuntimeError only follows a message, whose alert() has set need_save *)
    f = FIO \/ s_dirty s = true ->
    sub_spec s v f (ended (v_owner v) s true (s_fs s), OEnded false false (Some cls) r)
| SubReturn fs' :
    sv_left v (s_tree s) = 1 -> load fs' = Some (v_snap v) -> (s_dirty s = false -> v_snap v = s_tree s) ->
    sub_spec s v f (ended (v_owner v) s (s_dirty s) fs', OEnded false false None false)
| SubGo fs' v' :
    v_owner v' = v_owner v -> v_load0 v' = v_load0 v -> sv_inv (s_tree s) (s_dirty s) fs' v' ->
    (s_dirty s = false -> S (sv_left v' (s_tree s)) = sv_left v (s_tree s)) ->
    sub_spec s v f (mkSt (s_tree s) (s_dirty s) fs' (s_armed s) (s_stopped s) (Some v'), OProgress).

(* idle: a clean state is on disk, and the next run is armed unless stopped;
   saving: nothing is armed, and the save is the final one iff stopped *)
Inductive Inv : st -> Prop :=
| InvIdle t d f stopped :
    (d = false -> load f = Some t) -> Inv (mkSt t d f (negb stopped) stopped None)
| InvSaving t d f (stopped : bool) v :
    sv_inv t d f v -> v_owner v = (if stopped then OFinal else OSched) ->
    Inv (mkSt t d f false stopped (Some v)).

Lemma inv_ended :
  forall t d0 f0 (stopped : bool) sv d f, (d = false -> load f = Some t) ->
    Inv (ended (if stopped then OFinal else OSched) (mkSt t d0 f0 false stopped sv) d f).
Proof.
  intros t d0 f0 stopped sv d f H.
  destruct stopped; [exact (InvIdle t d f true H) | exact (InvIdle t d f false H)].
Qed.

Lemma init_inv : forall t f, Inv (init t f).
Proof. intros t f. apply (InvIdle t true f false). discriminate. Qed.

(* what one event does, by what becomes of the save *)
Inductive step_spec (s : st) : st * outp -> Prop :=
| StepNoop : step_spec s (s, ONoop)
| StepMsg s' a : s_saving s' = s_saving s -> step_spec s (s', OMsg a)
| StepSkip s' sk dn : s_saving s = None -> s_saving s' = None -> step_spec s (s', OEnded sk dn None false)
| StepBegin s' : s_saving s = None -> step_spec s (s', OProgress)
| StepSub v f r :
    s_saving s = Some v -> sv_inv (s_tree s) (s_dirty s) (s_fs s) v -> sub_spec s v f r -> step_spec s r.

Lemma run_app : forall c fl pol evs1 evs2 s, run c fl pol s (evs1 ++ evs2) = run c fl pol (run c fl pol s evs1) evs2.
Proof. intros. unfold run. apply fold_left_app. Qed.

Local Arguments sub_step : simpl never.

Section Good.
  Variable c : cfg.
  Hypothesis Hgood : good c = true.
  Variable fl : flavour.
  Variable pol : policy.
  Hypothesis Hpol : policy_ok pol.

  Let G : good_facts c := good_gives c Hgood.

  (* an exception inside save_sensors: the handler stores True into need_save *)
  Lemma raises_good :
    forall s v f cls, sv_inv (s_tree s) (s_dirty s) (s_fs s) v ->
      cls = FOSError \/ (cls = FRuntimeError /\ s_dirty s = true) -> f = FIO \/ s_dirty s = true ->
      sub_spec s v f (save_raises c fl v cls s).
  Proof.
    intros s v f cls Hinv Hc Hf. unfold save_raises.
    assert (Hp : Nat.leb (sv_protect_from (c_save c)) (v_idx v) = true).
    { apply Nat.leb_le. pose proof (gf_pf c G). destruct Hinv; simpl; lia. }
    rewrite (has_try_good c G), Hp, (gf_sets c G), (gf_fin c G). simpl.
    assert (Hd : (if covers (sv_handler (c_save c)) cls then true else s_dirty s) = true).
    { destruct Hc as [-> | [-> ->]].
      - rewrite (gf_os c G). reflexivity.
      - destruct (covers _ _); reflexivity. }
    rewrite return_good.
    - unfold ended. simpl. rewrite Hd. apply SubFail. exact Hf.
    - exact G.
    - destruct (covers (sv_handler (c_save c)) cls && negb (sv_handler_reraises (c_save c)));
        destruct Hc as [-> | [-> _]]; auto.
  Qed.

  Lemma substep_cases :
    forall s v f, sv_inv (s_tree s) (s_dirty s) (s_fs s) v -> sub_spec s v f (sub_step c fl pol v f s).
  Proof.
    intros s v f Hinv. pose proof (fun cls => raises_good s v f cls Hinv) as Hfail.
    unfold sub_step. destruct f; [|apply Hfail; auto].
    destruct Hinv as [o ph snap l0 Hl Hc | o ph snap l0 Hl Hm Hs | o ex ph snap l0 Hl Hs | o ph snap l0 Hm Hs];
      cbn -[settle].
    - destruct ph as [|ss|snap']; simpl.
      + (* open *)
        apply (SubGo _ _ _ (s_fs s)); simpl; auto.
        * apply InvSer; auto. intros _. apply ser_open_consistent.
        * intros _. pose proof (ser_open_left (s_tree s)) as Ho. unfold sv_left; simpl in *. lia.
      + (* one object *)
        pose proof (ser_step_cases pol (s_tree s) ss (s_dirty s) Hpol Hc) as Hp.
        destruct (ser_step pol (s_tree s) ss) as [ph'|e].
        * apply (SubGo _ _ _ (s_fs s)); simpl; auto.
          -- apply InvSer; auto. intros Hd. apply Hp, Hd.
          -- intros Hd. destruct (Hp Hd) as [_ H3]. unfold sv_left; simpl. simpl in H3. lia.
        * destruct Hp as [-> Hd]. apply Hfail; auto.
      + (* flush, fsync, close *)
        destruct (is_some (f_main (s_fs s))) eqn:Eex; simpl.
        * apply (SubGo _ _ _ (s_fs s)); simpl; auto. apply InvRenBak; auto.
        * apply (SubGo _ _ _ (s_fs s)); simpl; auto. apply InvRenMain; auto.
    - (* rename main -> bak *)
      simpl. apply SubGo; simpl; auto. apply InvRenMain; auto.
      rewrite <- Hl. unfold load; simpl. destruct (f_main (s_fs s)); [reflexivity|discriminate].
    - (* rename tmp -> main; no backup to remove when there was no file *)
      destruct ex.
      + simpl. apply SubGo; simpl; auto. apply InvRemBak; auto.
      + change (settle c fl ?v [SRemBak] 4 ?s1) with (settle c fl v [] 5 s1).
        rewrite settle_nil by exact G. unfold ended; simpl. apply SubReturn; auto.
    - (* remove bak *)
      rewrite settle_nil by exact G. unfold ended; simpl. apply SubReturn; simpl; auto.
      unfold load; simpl. rewrite Hm. reflexivity.
  Qed.

  (* stop() at an idle point cancels and makes the final save *)
  Lemma stop_good :
    forall denied s, s_saving s = None -> s_stopped s = false ->
      step c fl pol s (EStop denied) =
      begin_save c fl OFinal denied (mkSt (s_tree s) (s_dirty s) (s_fs s) false true None).
  Proof.
    intros denied s Hidle Hst. simpl. rewrite Hidle, Hst.
    pose proof (gf_sched c G fl) as Hg. unfold good_sched in Hg. rewrite !andb_true_iff in Hg.
    destruct Hg as [[[_ Hc] Hk] Hv]. rewrite Hc, Hk, Hv. reflexivity.
  Qed.

  (* save_sensors called by the schedule, or by stop() *)
  Lemma begin_cases :
    forall denied t d f (stopped : bool) s0,
      (d = false -> load f = Some t) -> s_saving s0 = None ->
      let r := begin_save c fl (if stopped then OFinal else OSched) denied (mkSt t d f false stopped None) in
      Inv (fst r) /\ step_spec s0 r.
  Proof.
    intros denied t d f stopped s0 Hl Hidle. cbv zeta. rewrite begin_good by exact G. simpl.
    destruct d; [destruct denied|]; simpl;
      try (split; [apply inv_ended; exact Hl | apply StepSkip; auto]).
    split; [| apply StepBegin; exact Hidle].
    apply InvSaving; auto. apply InvSer; auto. intros _. exact I.
  Qed.

  Lemma step_cases :
    forall s e, Inv s -> Inv (fst (step c fl pol s e)) /\ step_spec s (step c fl pol s e).
  Proof.
    intros s e Hinv.
    (* a fire or stop during a save, a sub-step without one: nothing happens *)
    assert (Hnoop : Inv (fst (s, ONoop)) /\ step_spec s (s, ONoop)) by (split; [exact Hinv | apply StepNoop]).
    destruct e as [denied | ft | m | denied].
    - (* fire *)
      destruct Hinv as [t d f [|] Hl | t d f stopped v Hv Ho]; try exact Hnoop.
      apply (begin_cases denied t d f false); auto.
    - (* sub-step *)
      destruct Hinv as [t d f stopped Hl | t d f stopped v Hv Ho]; simpl; try exact Hnoop.
      pose proof (substep_cases (mkSt t d f false stopped (Some v)) v ft Hv) as Hsub.
      split; [| apply (StepSub _ v ft); auto].
      destruct Hsub as [cls r _ | fs' _ Hf Hs | fs' v' Ho' _ Hv' _]; simpl; rewrite ?Ho.
      + apply inv_ended. discriminate.
      + apply inv_ended. intros Hd. rewrite Hf, Hs; auto.
      + apply InvSaving; auto. congruence.
    - (* message *)
      simpl. destruct (apply_msg m (s_tree s)) as [t' a] eqn:Em. simpl.
      split; [| apply StepMsg; reflexivity].
      rewrite (gf_alert c G), andb_true_r.
      destruct a.
      + rewrite orb_true_r. destruct Hinv as [t d f stopped Hl | t d f stopped v Hv Ho]; simpl.
        * apply InvIdle. discriminate.
        * apply InvSaving; auto. apply (sv_inv_dirty t _ d); auto.
      + rewrite orb_false_r, (apply_msg_silent _ _ _ Em). destruct s; exact Hinv.
    - (* stop *)
      destruct Hinv as [t d f [|] Hl | t d f stopped v Hv Ho]; try exact Hnoop.
      rewrite stop_good by auto. apply (begin_cases denied t d f true); auto.
  Qed.

  Lemma reachable_inv : forall s, reachable c fl pol s -> Inv s.
  Proof.
    intros s [t0 [f0 [evs ->]]]. generalize (init_inv t0 f0). generalize (init t0 f0).
    induction evs as [|e evs IH]; intros s Hi; simpl; auto.
    apply IH. apply step_cases; auto.
  Qed.

  Lemma reachable_cases :
    forall s e, reachable c fl pol s -> step_spec s (step c fl pol s e).
  Proof. intros s e Hr. apply step_cases, reachable_inv, Hr. Qed.

  Theorem no_lost_update_good :
    forall s, reachable c fl pol s ->
      s_saving s = None -> s_dirty s = false -> load (s_fs s) = Some (s_tree s).
  Proof. intros s Hr. destruct (reachable_inv s Hr); simpl; [auto | discriminate]. Qed.

  Theorem schedule_survives_good :
    forall s, reachable c fl pol s ->
      if s_stopped s
      then s_armed s = false /\ (forall v, s_saving s = Some v -> v_owner v = OFinal)
      else (s_armed s = true /\ s_saving s = None)
           \/ (s_armed s = false /\ exists v, s_saving s = Some v /\ v_owner v = OSched).
  Proof.
    intros s Hr. destruct (reachable_inv s Hr) as [t d f [|] Hl | t d f [|] v Hv Ho]; simpl.
    - split; [reflexivity | discriminate].
    - left. split; reflexivity.
    - split; [reflexivity | congruence].
    - right. split; [reflexivity|]. exists v. split; [reflexivity | exact Ho].
  Qed.

  Theorem every_fire_rearms_good :
    forall s e sk dn fc r, reachable c fl pol s ->
      snd (step c fl pol s e) = OEnded sk dn fc r ->
      s_stopped (fst (step c fl pol s e)) = false ->
      s_armed (fst (step c fl pol s e)) = true /\ s_saving (fst (step c fl pol s e)) = None.
  Proof.
    intros s e sk dn fc r Hr Ho Hst.
    destruct (step_cases s e (reachable_inv s Hr)) as [Hi Hs].
    (* an event that ends a save leaves the machine idle *)
    assert (Hidle : s_saving (fst (step c fl pol s e)) = None).
    { revert Ho. destruct Hs as [ | | | | v ft r0 _ _ []]; simpl; auto; discriminate. }
    split; [|exact Hidle]. revert Hst Hidle.
    destruct Hi; simpl; [intros ->; reflexivity | discriminate].
  Qed.

  Theorem failed_save_good :
    forall s e cls r, reachable c fl pol s ->
      snd (step c fl pol s e) = OEnded false false (Some cls) r ->
      let s' := fst (step c fl pol s e) in
      s_dirty s' = true /\ s_fs s' = s_fs s /\ s_tree s' = s_tree s /\ s_saving s' = None /\
      exists v, s_saving s = Some v /\
                (load (s_fs s') = v_load0 v \/ (v_todo v = [SRemBak] /\ load (s_fs s') = Some (v_snap v))).
  Proof.
    intros s e cls r Hr. cbv zeta.
    destruct (reachable_cases s e Hr) as [ | | | | v ft r0 Hv Hi []]; simpl; try discriminate.
    intros _. repeat split; auto. exists v. split; [exact Hv | exact (sv_inv_load _ _ _ _ Hi)].
  Qed.

  (* a save that returns has put a complete snapshot in place; it is the current tree
     unless a message arrived meanwhile (then need_save is True again) *)
  Theorem ok_save_good :
    forall s e v, reachable c fl pol s -> s_saving s = Some v ->
      snd (step c fl pol s e) = OEnded false false None false ->
      let s' := fst (step c fl pol s e) in
      load (s_fs s') = Some (v_snap v) /\ s_dirty s' = s_dirty s /\ s_saving s' = None
      /\ (s_dirty s' = false -> v_snap v = s_tree s').
  Proof.
    intros s e v Hr Hv. cbv zeta.
    destruct (reachable_cases s e Hr) as [ | | | | v0 ft r0 Hv0 _ []]; simpl; try discriminate; try congruence.
    replace v0 with v in * by congruence. auto.
  Qed.

  (* the ghost v_load0 is what a load returned when the save began ... *)
  Theorem load0_at_begin_good :
    forall s e v, s_saving s = None ->
      s_saving (fst (step c fl pol s e)) = Some v -> v_load0 v = load (s_fs s).
  Proof.
    assert (Hb : forall o denied s v,
               s_saving (fst (begin_save c fl o denied s)) = Some v -> v_load0 v = load (s_fs s)).
    { intros o denied s v. rewrite begin_good by exact G.
      destruct (s_dirty s), denied; simpl; intros [= <-]; reflexivity. }
    intros s e v Hidle.
    destruct e as [denied | ft | m | denied]; simpl; rewrite Hidle.
    - destruct (s_armed s); [exact (Hb OSched denied _ v) | simpl; congruence].
    - simpl. congruence.
    - destruct (apply_msg m (s_tree s)). simpl. congruence.
    - destruct (s_stopped s); [simpl; congruence|].
      destruct (_ && _); [exact (Hb OFinal denied _ v) | simpl; congruence].
  Qed.

  (* ... and never changes while the save runs *)
  Theorem load0_kept_good :
    forall s e v v', reachable c fl pol s -> s_saving s = Some v ->
      s_saving (fst (step c fl pol s e)) = Some v' -> v_load0 v' = v_load0 v.
  Proof.
    intros s e v v' Hr Hv.
    destruct (reachable_cases s e Hr) as [ | | | | v0 ft r0 Hv0 _ []]; simpl; congruence.
  Qed.

  (* an undisturbed fault-free save runs to its end *)
  Lemma quiet_run :
    forall n s v, sv_inv (s_tree s) (s_dirty s) (s_fs s) v -> s_saving s = Some v -> s_dirty s = false ->
      sv_left v (s_tree s) = n ->
      exists fs', run c fl pol s (repeat (EStep FNone) n) = ended (v_owner v) s false fs'
                  /\ load fs' = Some (s_tree s).
  Proof.
    induction n as [|n IH]; intros s v Hi Hv Hd Hn.
    - elim (sv_left_pos _ _ _ _ Hi Hn).
    - simpl. rewrite Hv.
      destruct (substep_cases s v FNone Hi) as [cls r [Hx | Hx] | fs' H1 Hf Hs | fs' v' Ho _ Hi' Hl];
        try congruence; simpl.
      + exists fs'. replace n with 0 by lia. rewrite Hd, Hf, (Hs Hd). auto.
      + rewrite <- Ho.
        apply (IH (mkSt (s_tree s) (s_dirty s) fs' (s_armed s) (s_stopped s) (Some v')) v' Hi' eq_refl Hd).
        specialize (Hl Hd). simpl. lia.
  Qed.

  Lemma idle_steps : forall n s, s_saving s = None -> run c fl pol s (repeat (EStep FNone) n) = s.
  Proof. induction n; intros s H; simpl; auto. rewrite H. simpl. apply IHn; auto. Qed.

  (* save_sensors with write permission on an unsaved state, then the sub-steps of the save *)
  Lemma quiet_save :
    forall o s, s_saving s = None -> s_dirty s = true ->
      exists fs', run c fl pol (fst (begin_save c fl o false s))
                      (repeat (EStep FNone) (save_len (s_tree s) (is_some (f_main (s_fs s)))))
                  = ended o s false fs' /\ load fs' = Some (s_tree s).
  Proof.
    intros o s Hidle Hd. rewrite begin_good, Hd by exact G. simpl.
    refine (quiet_run _ (mkSt (s_tree s) false (s_fs s) (s_armed s) (s_stopped s) (Some _)) _ _ eq_refl eq_refl _).
    - apply InvSer; auto. intros _. exact I.
    - unfold sv_left, save_len. simpl. lia.
  Qed.

  Theorem next_success_good :
    forall s,
      s_saving s = None -> s_armed s = true -> s_dirty s = true ->
      let s' := run c fl pol s (EFire false :: repeat (EStep FNone) (save_len (s_tree s) (is_some (f_main (s_fs s))))) in
      s_saving s' = None /\ s_dirty s' = false /\ load (s_fs s') = Some (s_tree s)
      /\ s_tree s' = s_tree s /\ s_armed s' = true /\ s_stopped s' = s_stopped s.
  Proof.
    intros s Hidle Harm Hd. cbv zeta. simpl. rewrite Hidle, Harm.
    destruct (quiet_save OSched (mkSt (s_tree s) (s_dirty s) (s_fs s) false (s_stopped s) None) eq_refl Hd)
      as [fs' [Hr Hl]].
    simpl in Hr. rewrite Hr. simpl. repeat split; auto.
  Qed.

  Theorem stop_persists_good :
    forall s, reachable c fl pol s ->
      s_saving s = None -> s_stopped s = false ->
      let s' := run c fl pol s (EStop false :: repeat (EStep FNone) (save_len (s_tree s) (is_some (f_main (s_fs s))))) in
      s_saving s' = None /\ load (s_fs s') = Some (s_tree s) /\ s_tree s' = s_tree s
      /\ s_armed s' = false /\ s_stopped s' = true.
  Proof.
    intros s Hr Hidle Hst. cbv zeta.
    change (run c fl pol s (EStop false :: ?l)) with (run c fl pol (fst (step c fl pol s (EStop false))) l).
    rewrite stop_good by auto.
    destruct (s_dirty s) eqn:Hd.
    - destruct (quiet_save OFinal (mkSt (s_tree s) true (s_fs s) false true None) eq_refl eq_refl)
        as [fs' [Hrun Hl]].
      simpl in Hrun. rewrite Hrun. simpl. repeat split; auto.
    - rewrite begin_good by exact G. simpl. rewrite idle_steps by reflexivity. simpl.
      repeat split. apply (no_lost_update_good s Hr Hidle Hd).
  Qed.

End Good.

Definition ex_tree : tree := [mkNode 1 17 [mkChild 1 6 [(0, 20)%Z]]; mkNode 2 18 []].
Definition no_file : fsys := mkFs None None.

(* D10 (flag cleared after the renames): a message handled between the serialisation
   and the clear is marked saved although it is not in the file *)
Definition d10_witness : list event :=
  [EFire false; EStep FNone; EMsg (AddNode 1 17); EStep FNone; EStep FNone].

(* D9 (no try/except around the save): one failing sub-step and nothing is scheduled any more *)
Definition d9_witness : list event := [EFire false; EStep FIO].

(* non-vacuity: a history with a RuntimeError, an OSError and a healing save, ending idle and clean *)
Definition ex_history : list event :=
  [EFire false; EStep FNone; EStep FNone; EMsg (AddChild 1 7 6); EStep FNone;      (* RuntimeError (json) *)
   EFire false; EStep FNone; EStep FIO;                                           (* OSError *)
   EFire false] ++ repeat (EStep FNone) 7.                                         (* heals *)
