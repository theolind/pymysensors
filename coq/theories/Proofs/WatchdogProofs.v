(* C20 - lemmas about Model/Watchdog.v (the TCP watchdog on arbitrary schedules). *)
From Coq Require Import List ZArith Bool Lia.
From PMS Require Import Gen.SupConsts Model.Watchdog.
Import ListNotations.
Open Scope Z_scope.

Lemma wd_check_spec : forall rt c d t,
  match wd_check rt c d t with
  | WdDrop => d + 2 * rt < t
  | WdProbe => t <= d + 2 * rt /\ c + rt < t
  | WdIdle => t <= d + 2 * rt /\ t <= c + rt
  end.
Proof.
  intros. unfold wd_check. change wd_factor with 2.
  destruct (Z.ltb_spec (d + 2 * rt) t); [assumption|].
  destruct (Z.leb_spec t (c + rt)); split; assumption.
Qed.

(* at the instant of a connect both timers equal the clock: check_connection is idle *)
Lemma wd_fresh : forall rt, 0 <= rt -> forall n, wd_check rt n n n = WdIdle.
Proof.
  intros rt H n. pose proof (wd_check_spec rt n n n) as E.
  destruct (wd_check rt n n n); [lia|lia|reflexivity].
Qed.

Definition no_drop (l : list wd_res) : bool := negb (existsb is_drop l).

(* invariant of a timely schedule: the last poll came within rt of the last probe, a probe
   still unanswered was sent within rt + delta of the last answer, and the clock is past both *)
Definition timely_inv (rt delta : Z) (w : wd) (last t0 : Z) : Prop :=
  last <= w_check w + rt /\ (w_disc w < w_check w -> w_check w <= w_disc w + rt + delta) /\ w_check w <= t0
  /\ last <= t0.

Lemma timely_safe_gen : forall rt lat delta, 0 <= delta <= rt -> lat <= rt - delta ->
  forall es w last t0, timely_inv rt delta w last t0 ->
  timely rt lat delta w last t0 es = true -> existsb is_drop (wd_run rt w es) = false.
Proof.
  intros rt lat delta Hd Hl. induction es as [|e es IH]; intros [c d] last t0 (J1 & J2 & J3 & J4) Ht; [reflexivity|].
  cbn [timely w_check w_disc] in *. apply andb_true_iff in Ht as [Ht Hrest].
  apply andb_true_iff in Ht as [Hmono Hout]. apply Z.leb_le in Hmono.
  destruct e as [t|t]; cbn [wev_time wd_run wd_step w_check w_disc fst] in *.
  - apply andb_true_iff in Hrest as [Hdense Hrest]. apply Z.leb_le in Hdense.
    pose proof (wd_check_spec rt c d t) as Ec.
    destruct (Z.ltb_spec d c); [apply Z.leb_le in Hout|];
    (destruct (wd_check rt c d t); [lia| |]; apply (IH _ t t); try exact Hrest;
     unfold timely_inv; cbn [w_check w_disc]; lia).
  - change wd_reset_on_answer with true in *.
    apply (IH _ last t); [|exact Hrest]. unfold timely_inv. cbn [w_check w_disc]. lia.
Qed.

Lemma silent_dropped : forall rt delta ps w last, dense delta last ps = true ->
  last <= w_disc w + 2 * rt ->
  match first_drop rt w ps with
  | Some t => w_disc w + 2 * rt < t <= w_disc w + 2 * rt + delta
  | None => forallb (fun t => t <=? w_disc w + 2 * rt) ps = true
  end.
Proof.
  intros rt delta. induction ps as [|t ps IH]; intros [c d] last Hd Hl; [reflexivity|].
  cbn [dense] in Hd. apply andb_true_iff in Hd as [Hd Hrest].
  apply andb_true_iff in Hd as [H1 H2]. apply Z.leb_le in H1. apply Z.leb_le in H2.
  cbn [w_disc first_drop wd_step w_check] in *.
  pose proof (wd_check_spec rt c d t) as Ec.
  destruct (wd_check rt c d t); [lia| |];
  (match goal with |- context [first_drop rt ?w ps] => specialize (IH w t Hrest) end;
   cbn [w_disc] in IH; specialize (IH ltac:(lia)); destruct (first_drop rt _ ps); [exact IH|];
   cbn [forallb]; rewrite IH; apply andb_true_iff; split; [apply Z.leb_le; lia|reflexivity]).
Qed.

Lemma dense_chain : forall q k last, 0 <= q -> dense q last (chain q last k) = true.
Proof.
  intros q. induction k as [|k IH]; intros last Hq; [reflexivity|].
  cbn [chain dense]. rewrite IH, Z.leb_refl, !andb_true_r by exact Hq. apply Z.leb_le. lia.
Qed.

Lemma async_safe_gen : forall rt slack, 0 < slack < rt ->
  forall es w last t0 pending,
  w_check w <= last -> last <= t0 -> (pending = false -> last <= w_disc w) ->
  periodic (rt + slack) last t0 es = true -> answered_each rt w pending es = true ->
  existsb is_drop (wd_run rt w es) = false.
Proof.
  intros rt slack Hs. induction es as [|e es IH]; intros [c d] last t0 pending Hc Hl Hp Hper Hans; [reflexivity|].
  cbn [w_check w_disc] in *.
  destruct e as [t|t]; cbn [periodic] in Hper; apply andb_true_iff in Hper as [Hper Hrest];
  apply andb_true_iff in Hper as [Ht _];
  cbn [answered_each wd_step w_check w_disc] in Hans; cbn [wd_run wd_step w_check w_disc].
  - apply Z.eqb_eq in Ht. pose proof (wd_check_spec rt c d t) as Ec.
    destruct (wd_check rt c d t); apply andb_true_iff in Hans as [Hpend Hans].
    + apply negb_true_iff in Hpend. specialize (Hp Hpend). lia.
    + apply (IH _ t t true); cbn [w_check w_disc]; try lia; assumption.
    + lia.
  - apply Z.leb_le in Ht. change wd_reset_on_answer with true in *.
    apply (IH _ last t false); cbn [w_check w_disc]; try lia; assumption.
Qed.
