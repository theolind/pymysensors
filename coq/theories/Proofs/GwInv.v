(* The layer every family of the core machine builds on: the five configurations and the finite
   facts about their generated tables and registry, the invariant Inv, and C01: every operation
   keeps Inv and the configuration, and the dispatcher never raises. *)
From Coq Require Import List NArith ZArith Bool String Lia.
From PMS Require Import Base.PyStr Base.PyInt Base.Exn Model.Codec Model.Rules Model.TableTypes
  Gen.Tables Model.Validate Model.Hex Model.Ota Model.Oracles Model.Gateway Spec.SerialApi
  Proofs.PyStrFacts Proofs.CodecProofs Proofs.ValidateProofs Proofs.GwLemmas Proofs.HexProofs Proofs.OtaProofs.
Import ListNotations.
Open Scope string_scope.
Open Scope list_scope.
Open Scope Z_scope.

Definition ge20 (v : ver) : bool := match v with V20 | V21 | V22 => true | _ => false end.

(* the five configurations the library can select (get_const + the >= 2.0 test agree) *)
Definition cfg_ok (cf : config) : Prop := exists v, cf_tab cf = tab_of v /\ cf_ge20 cf = ge20 v.

(* constants that have the same value in all five generated tables *)
Lemma k_presentation v : vt_presentation (tab_of v) = 0. Proof. destruct v; vm_compute; reflexivity. Qed.
Lemma k_set v : vt_set (tab_of v) = 1. Proof. destruct v; vm_compute; reflexivity. Qed.
Lemma k_internal v : vt_internal (tab_of v) = 3. Proof. destruct v; vm_compute; reflexivity. Qed.
Lemma k_stream v : vt_stream (tab_of v) = 4. Proof. destruct v; vm_compute; reflexivity. Qed.
Lemma k_max_node v : vt_max_node (tab_of v) = 254. Proof. destruct v; vm_compute; reflexivity. Qed.

Definition has_member (l : list (pstr * Z)) (n : string) : bool :=
  match sassoc (s2p n) l with Some _ => true | None => false end.

Definition leaf_ok (h : hfun) : bool :=
  match h with
  | HPresentation | HSet | HReq | HInternal | HStream | HUnknown => false
  | _ => true
  end.
Definition is_gr20 (h : hfun) : bool := match h with HGatewayReady20 => true | _ => false end.

(* The registry, resolved: the handler function of every sub-type and of every command.
   Evaluating registry_fun is dear to check (hfun_of_name compares the name with twenty literals),
   so it is done once per version (resolved_eq); every finite fact about the handlers of the
   generated tables is then a computation on the list `resolved v`. *)
Definition resolve (t : vtab) : list (Z * list (Z * option hfun)) * list (Z * option hfun) :=
  (map (fun tn => (fst tn, map (fun sn => (fst sn, registry_fun t (snd sn))) (snd tn))) (vt_sub_names t),
   map (fun tn => (fst tn, registry_fun t (snd tn))) (vt_mtype_names t)).

Definition olookup {A} (k : Z) (l : list (Z * option A)) : option A :=
  match zassoc k l with Some o => o | None => None end.
Definition sub_lookup (r : list (Z * list (Z * option hfun)) * list (Z * option hfun)) (ty sub : Z) : option hfun :=
  match zassoc ty (fst r) with Some l => olookup sub l | None => None end.
Definition type_lookup (r : list (Z * list (Z * option hfun)) * list (Z * option hfun)) (ty : Z) : option hfun :=
  olookup ty (snd r).

Lemma sub_handler_resolve t ty sub : sub_handler t ty sub = sub_lookup (resolve t) ty sub.
Proof.
  unfold sub_handler, sub_lookup, olookup, resolve. cbn [fst]. rewrite zassoc_map.
  destruct (zassoc ty (vt_sub_names t)) as [names|]; [|reflexivity]. cbn [option_map]. rewrite zassoc_map.
  destruct (zassoc sub names); reflexivity.
Qed.

Lemma type_handler_resolve t ty : type_handler t ty = type_lookup (resolve t) ty.
Proof.
  unfold type_handler, type_lookup, olookup, resolve. cbn [snd]. rewrite zassoc_map.
  destruct (zassoc ty (vt_mtype_names t)); reflexivity.
Qed.

Definition resolved (v : ver) : list (Z * list (Z * option hfun)) * list (Z * option hfun) :=
  match v with
  | V14 => ltac:(let x := eval vm_compute in (resolve tab_14) in exact x)
  | V15 => ltac:(let x := eval vm_compute in (resolve tab_15) in exact x)
  | V20 => ltac:(let x := eval vm_compute in (resolve tab_20) in exact x)
  | V21 => ltac:(let x := eval vm_compute in (resolve tab_21) in exact x)
  | V22 => ltac:(let x := eval vm_compute in (resolve tab_22) in exact x)
  end.

Lemma resolved_eq v : resolve (tab_of v) = resolved v.
Proof. destruct v; vm_compute; reflexivity. Qed.

Lemma sub_handler_resolved v ty sub : sub_handler (tab_of v) ty sub = sub_lookup (resolved v) ty sub.
Proof. rewrite <- resolved_eq. apply sub_handler_resolve. Qed.
Lemma type_handler_resolved v ty : type_handler (tab_of v) ty = type_lookup (resolved v) ty.
Proof. rewrite <- resolved_eq. apply type_handler_resolve. Qed.

(* a boolean property of all resolved sub-type handlers holds of every lookup *)
Definition all_subs (P : Z -> Z -> hfun -> bool) (r : list (Z * list (Z * option hfun)) * list (Z * option hfun)) : bool :=
  forallb (fun tl => forallb (fun so => match snd so with Some h => P (fst tl) (fst so) h | None => true end) (snd tl))
          (fst r).

Lemma all_subs_spec P r : all_subs P r = true ->
  forall ty sub h, sub_lookup r ty sub = Some h -> P ty sub h = true.
Proof.
  unfold all_subs, sub_lookup, olookup. intros A ty sub h H.
  destruct (zassoc ty (fst r)) as [l|] eqn:E1; [|discriminate].
  destruct (zassoc sub l) as [o|] eqn:E2; [|discriminate]. subst o.
  rewrite forallb_forall in A. specialize (A _ (zassoc_In _ _ _ E1)).
  rewrite forallb_forall in A. exact (A _ (zassoc_In _ _ _ E2)).
Qed.

(* every registered sub-type handler is one run_leaf knows, and I_DISCOVER exists where
   handle_gateway_ready_20 is registered *)
Definition sub_handlers_ok (t : vtab) : bool :=
  all_subs (fun _ _ h => leaf_ok h && (negb (is_gr20 h) || has_member (vt_internal_members t) "I_DISCOVER"))
           (resolve t).

Definition hfun_eqb (a b : hfun) : bool :=
  match a, b with
  | HPresentation, HPresentation | HSet, HSet | HReq, HReq | HInternal, HInternal | HStream, HStream => true
  | _, _ => false
  end.

Definition tab_facts (t : vtab) (ge : bool) : bool :=
  (vt_internal t =? 3) &&
  (negb ge || match sassoc (s2p "I_PRESENTATION") (vt_internal_members t) with Some z => z =? 19 | None => false end) &&
  has_member (vt_internal_members t) "I_REBOOT" && has_member (vt_internal_members t) "I_ID_RESPONSE" &&
  has_member (vt_stream_members t) "ST_FIRMWARE_CONFIG_RESPONSE" &&
  has_member (vt_stream_members t) "ST_FIRMWARE_RESPONSE" &&
  sub_handlers_ok t &&
  match type_handler t 0, type_handler t 1, type_handler t 2, type_handler t 3, type_handler t 4 with
  | Some HPresentation, Some HSet, Some HReq, Some HInternal, Some HStream => true
  | _, _, _, _, _ => false
  end.

Lemma tab_facts_all v : tab_facts (tab_of v) (ge20 v) = true.
Proof.
  unfold tab_facts, sub_handlers_ok. rewrite !type_handler_resolved, resolved_eq.
  destruct v; vm_compute; reflexivity.
Qed.

Lemma sub_handler_in t ty sub h : sub_handlers_ok t = true -> sub_handler t ty sub = Some h ->
  leaf_ok h = true /\ (h = HGatewayReady20 -> has_member (vt_internal_members t) "I_DISCOVER" = true).
Proof.
  rewrite sub_handler_resolve. intros A H. apply (all_subs_spec _ _ A) in H.
  apply andb_true_iff in H as [L D]. split; [exact L|]. intros ->. exact D.
Qed.

Lemma member_some l n : has_member l n = true -> exists z, sassoc (s2p n) l = Some z.
Proof. unfold has_member. destruct (sassoc (s2p n) l) as [z|]; [exists z; reflexivity|discriminate]. Qed.

(* the five commands, read off the test in tab_facts *)
Lemma main_handlers (a b c d e : option hfun) :
  match a, b, c, d, e with
  | Some HPresentation, Some HSet, Some HReq, Some HInternal, Some HStream => true
  | _, _, _, _, _ => false
  end = true ->
  a = Some HPresentation /\ b = Some HSet /\ c = Some HReq /\ d = Some HInternal /\ e = Some HStream.
Proof.
  intro H. destruct a as [[]|]; try discriminate H. destruct b as [[]|]; try discriminate H.
  destruct c as [[]|]; try discriminate H. destruct d as [[]|]; try discriminate H.
  destruct e as [[]|]; try discriminate H. repeat split.
Qed.

Section Inv.
  Variable orc : oracles.
  Variable clock : Z.

  Definition dvalid (t : vtab) (nid c vt : Z) (v : pyval) : Prop :=
    validate (orc_version orc) (orc_float orc) t (mkMsg nid c (vt_set t) 0 vt (py_str v)) = true.
  Definition dv_ok (t : vtab) (nid c : Z) (dv : list (Z * option pyval)) : Prop :=
    Forall (fun kv => match snd kv with Some v => dvalid t nid c (fst kv) v | None => True end) dv.
  Definition node_ok (t : vtab) (kn : Z * node) : Prop :=
    n_id (snd kn) = fst kn /\
    Forall (fun cd => dv_ok t (n_id (snd kn)) (fst cd) (snd cd)) (n_new (snd kn)).
  Definition word (z : Z) : Prop := word_ok z = true.
  Definition store_ok (l : list (Z * (Z * Z))) : Prop :=
    Forall (fun e => word (fst (snd e)) /\ word (snd (snd e))) l.
  Definition fws_ok (l : list ((Z * Z) * fware)) : Prop :=
    Forall (fun e => word (fw_blocks (snd e)) /\ word (fw_crc (snd e))) l.
  Definition ota_ok (o : ota) : Prop :=
    store_ok (o_requested o) /\ store_ok (o_unstarted o) /\ store_ok (o_started o) /\ fws_ok (o_fw o).

  Definition Inv (g : gw) : Prop :=
    Forall (node_ok (tab g)) (g_sensors g) /\ ota_ok (g_ota g).

  Lemma Inv_ext g g' :
    g_sensors g' = g_sensors g -> g_ota g' = g_ota g -> g_cf g' = g_cf g -> Inv g -> Inv g'.
  Proof. unfold Inv, tab. intros -> -> ->. tauto. Qed.

  (* g' continues g: the invariant holds again and the configuration is untouched.  Every
     operation of the machine takes a continuation of g to a continuation of g. *)
  Definition kept (g g' : gw) : Prop := Inv g' /\ g_cf g' = g_cf g.

  Lemma kept_refl g : Inv g -> kept g g.
  Proof. intro I. split; [exact I|reflexivity]. Qed.

  Lemma kept_ext g g1 g2 :
    g_sensors g2 = g_sensors g1 -> g_ota g2 = g_ota g1 -> g_cf g2 = g_cf g1 -> kept g g1 -> kept g g2.
  Proof. intros S O C [I E]. split; [exact (Inv_ext _ _ S O C I)|congruence]. Qed.

  Lemma kept_send g g1 l : kept g g1 -> kept g (send g1 l).
  Proof. destruct (send_frame g1 l) as (?&?&?&_). apply kept_ext; assumption. Qed.
  Lemma kept_add_job g g1 l : kept g g1 -> kept g (add_job_send g1 l).
  Proof. destruct (add_job_send_frame g1 l) as (?&?&?&_). apply kept_ext; assumption. Qed.
  Lemma kept_fold_add_job ls g g1 : kept g g1 -> kept g (fold_left add_job_send ls g1).
  Proof. destruct (fold_add_job_send_frame ls g1) as (?&?&?&_). apply kept_ext; assumption. Qed.
  Lemma kept_alert g g1 m : kept g g1 -> kept g (alert g1 m).
  Proof. destruct (alert_frame g1 m) as (?&?&?&_). apply kept_ext; assumption. Qed.

  Lemma Inv_set_jobs g j : Inv g -> Inv (set_jobs g j).
  Proof. apply Inv_ext; reflexivity. Qed.
  Lemma cf_send g l : g_cf (send g l) = g_cf g.
  Proof. destruct (send_frame g l) as (_&_&H&_). exact H. Qed.
  Lemma cf_add_job g l : g_cf (add_job_send g l) = g_cf g.
  Proof. destruct (add_job_send_frame g l) as (_&_&H&_). exact H. Qed.

  Lemma Inv_put_node g nd : Inv g -> node_ok (tab g) (n_id nd, nd) -> Inv (put_node g nd).
  Proof.
    intros [S O] N. split; [|exact O]. unfold put_node. simpl.
    change (tab (set_sensors g (zset (n_id nd) nd (g_sensors g)))) with (tab g).
    apply Forall_zset; assumption.
  Qed.

  Lemma get_node_ok g k nd : Inv g -> get_node g k = Some nd -> node_ok (tab g) (k, nd).
  Proof. intros [S _] H. unfold get_node in H. exact (zassoc_Forall _ _ _ _ S H). Qed.

  Lemma kept_put_node g g1 nd : kept g g1 -> node_ok (tab g1) (n_id nd, nd) -> kept g (put_node g1 nd).
  Proof. intros [I C] N. split; [apply Inv_put_node; assumption|exact C]. Qed.

  Lemma kept_put_same g g1 k nd nd' :
    kept g g1 -> get_node g1 k = Some nd -> n_id nd' = n_id nd -> n_new nd' = n_new nd ->
    kept g (put_node g1 nd').
  Proof.
    intros K G E1 E2. apply kept_put_node; [exact K|].
    destruct (get_node_ok _ _ _ (proj1 K) G) as [_ N]. split; simpl in *; [reflexivity|].
    rewrite E1, E2. exact N.
  Qed.

  Lemma kept_route_opt g g1 r : kept g g1 -> kept g (fst (route_opt g1 r)).
  Proof.
    intro K. destruct r as [m|]; [|exact K]. unfold route_opt.
    destruct (route_cases g1 m) as [(nd & G & _ & ->)|[-> _]]; [|exact K].
    eapply kept_put_same; [exact K|exact G|reflexivity|reflexivity].
  Qed.

  Definition facts (g : gw) : Prop := tab_facts (tab g) (cf_ge20 (g_cf g)) = true.

  Lemma facts_of_cfg g : cfg_ok (g_cf g) -> facts g.
  Proof. intros [v [T G]]. unfold facts, tab. rewrite T, G. apply tab_facts_all. Qed.

  Lemma internal_member_ok g n : has_member (vt_internal_members (tab g)) n = true ->
    exists z, internal_member g n = Ok z.
  Proof. intro H. apply member_some in H as [z E]. unfold internal_member. rewrite E. exists z. reflexivity. Qed.
  Lemma stream_member_ok g n : has_member (vt_stream_members (tab g)) n = true ->
    exists z, stream_member g n = Ok z.
  Proof. intro H. apply member_some in H as [z E]. unfold stream_member. rewrite E. exists z. reflexivity. Qed.

  Lemma facts_spec g : facts g ->
    (vt_internal (tab g) = 3 /\
     (cf_ge20 (g_cf g) = true -> sassoc (s2p "I_PRESENTATION") (vt_internal_members (tab g)) = Some 19)) /\
    (exists z, internal_member g "I_REBOOT" = Ok z) /\
    (exists z, internal_member g "I_ID_RESPONSE" = Ok z) /\
    (exists z, stream_member g "ST_FIRMWARE_CONFIG_RESPONSE" = Ok z) /\
    (exists z, stream_member g "ST_FIRMWARE_RESPONSE" = Ok z) /\
    (forall ty sub h, sub_handler (tab g) ty sub = Some h ->
       leaf_ok h = true /\ (h = HGatewayReady20 -> exists z, internal_member g "I_DISCOVER" = Ok z)) /\
    type_handler (tab g) 0 = Some HPresentation /\ type_handler (tab g) 1 = Some HSet /\
    type_handler (tab g) 2 = Some HReq /\ type_handler (tab g) 3 = Some HInternal /\
    type_handler (tab g) 4 = Some HStream.
  Proof.
    unfold facts, tab_facts. intro F.
    repeat match type of F with _ && _ = true => apply andb_true_iff in F as [F ?] end.
    match goal with H : match type_handler _ 0 with _ => _ end = true |- _ => apply main_handlers in H end.
    repeat match goal with |- _ /\ _ => split end;
      try (apply internal_member_ok || apply stream_member_ok; assumption); try tauto.
    - apply Z.eqb_eq, F.
    - intro GE. match goal with H : negb _ || _ = true |- _ => rewrite GE in H; cbn [negb orb] in H end.
      destruct (sassoc _ _) as [z|]; [|discriminate]. f_equal. apply Z.eqb_eq. assumption.
    - intros ty sub h E. match goal with A : sub_handlers_ok _ = true |- _ =>
        destruct (sub_handler_in _ _ _ _ A E) as [L D] end.
      split; [exact L|]. intro G. apply internal_member_ok, D, G.
  Qed.

  (* what a negative verdict costs: a presentation request, to a valid node id on >= 2.0 only *)
  Definition ask (g : gw) (sid : Z) : gw :=
    if node_id_ok sid && cf_ge20 (g_cf g) then deliver g (mkMsg sid system_child_id 3 0 19 []) else g.

  Lemma is_sensor_closed g sid cid : facts g ->
    is_sensor g sid cid = Ok (if registered g sid cid then (g, true) else (ask g sid, false)).
  Proof.
    intro F. destruct (facts_spec g F) as ((T & P) & _). unfold is_sensor, ask. fold (registered g sid cid).
    destruct (registered g sid cid); cbn [negb andb]; [reflexivity|].
    destruct (node_id_ok sid); cbn [andb]; [|reflexivity].
    destruct (cf_ge20 (g_cf g)); [|reflexivity]. rewrite (P eq_refl), T. unfold deliver.
    destruct (route g _) as [g1 [m'|]]; reflexivity.
  Qed.

  Lemma kept_deliver g g1 x : kept g g1 -> kept g (deliver g1 x).
  Proof.
    intro K. apply (kept_route_opt g g1 (Some x)) in K. unfold deliver. cbn [route_opt] in K.
    destruct (route g1 x) as [g2 [m'|]]; [apply kept_add_job|]; exact K.
  Qed.

  Lemma kept_ask g g1 sid : kept g g1 -> kept g (ask g1 sid).
  Proof. intro K. unfold ask. destruct (_ && _); [apply kept_deliver|]; exact K. Qed.

  (* result of a handler: Ok, invariant kept, configuration untouched *)
  Definition hres_ok (g : gw) (r : res (gw * option msg)) : Prop :=
    exists g' rep, r = Ok (g', rep) /\ Inv g' /\ g_cf g' = g_cf g.

  Lemma hres_intro {g g' rep} : kept g g' -> hres_ok g (Ok (g', rep)).
  Proof. intros [I C]. exists g'. exists rep. auto. Qed.

  (* the common frame of the handlers: ask is_sensor, stop when the node is unknown, else
     fetch the node and go on; only the continuation on the unchanged state is left to show *)
  Lemma known_node_ok g sid cid (body : gw -> node -> res (gw * option msg)) : facts g -> Inv g ->
    (forall nd, get_node g sid = Some nd -> hres_ok g (body g nd)) ->
    hres_ok g (do gr <- is_sensor g sid cid;
               let '(g1, known) := gr in
               if negb known then Ok (g1, None)
               else match get_node g1 sid with None => Raise KeyError | Some nd => body g1 nd end).
  Proof.
    intros F I H. rewrite (is_sensor_closed g sid cid F). destruct (registered g sid cid) eqn:R; cbn [bind negb].
    - destruct (registered_get g sid cid R) as (nd & G & _). rewrite G. exact (H nd G).
    - apply hres_intro, kept_ask, kept_refl, I.
  Qed.

  Lemma get_node_add_sensor g sid : exists nd, get_node (add_sensor g sid) sid = Some nd.
  Proof.
    unfold add_sensor. destruct (zhas sid (g_sensors g)) eqn:H.
    - apply zhas_true in H. exact H.
    - unfold get_node. simpl. rewrite zassoc_app.
      unfold zhas in H. destruct (zassoc sid (g_sensors g)); [discriminate|].
      simpl. rewrite Z.eqb_refl. eexists. reflexivity.
  Qed.

  Lemma Inv_add_sensor g sid : Inv g -> Inv (add_sensor g sid).
  Proof.
    intros [S O]. unfold add_sensor. destruct (zhas sid (g_sensors g)); [split; assumption|].
    split; [|exact O]. simpl. apply Forall_app. split; [exact S|].
    constructor; [|constructor]. split; simpl; [reflexivity|constructor].
  Qed.

  Lemma cf_add_sensor g sid : g_cf (add_sensor g sid) = g_cf g.
  Proof. unfold add_sensor. destruct (zhas sid (g_sensors g)); reflexivity. Qed.

  Lemma kept_add_sensor g g1 sid : kept g g1 -> kept g (add_sensor g1 sid).
  Proof. intros [I C]. split; [apply Inv_add_sensor, I|rewrite cf_add_sensor; exact C]. Qed.

  Lemma handle_presentation_ok g m : facts g -> Inv g -> hres_ok g (handle_presentation orc g m).
  Proof.
    intros F I. pose proof (kept_refl g I) as K0. unfold handle_presentation.
    destruct (m_child m =? system_child_id).
    - destruct (get_node_add_sensor g (m_node m)) as [nd G]. rewrite G. apply hres_intro, kept_alert.
      eapply kept_put_same; [apply kept_add_sensor, K0|exact G|reflexivity|reflexivity].
    - apply known_node_ok; try assumption. intros nd G.
      destruct (zhas (m_child m) (n_children nd)); apply hres_intro; [exact K0|].
      apply kept_alert. eapply kept_put_same; [exact K0|exact G|reflexivity|reflexivity].
  Qed.

  (* setting a desired value (Some v, validated) or confirming one (None) *)
  Lemma new_state_zset t nd c dv vt v :
    Forall (fun cd => dv_ok t (n_id nd) (fst cd) (snd cd)) (n_new nd) -> zassoc c (n_new nd) = Some dv ->
    match v with Some x => dvalid t (n_id nd) c vt x | None => True end ->
    Forall (fun cd => dv_ok t (n_id nd) (fst cd) (snd cd)) (zset c (zset vt v dv) (n_new nd)).
  Proof.
    intros N D V. apply Forall_zset; [exact N|]. apply Forall_zset; [|exact V].
    exact (zassoc_Forall _ _ _ _ N D).
  Qed.

  (* update_child_value keeps the id and only confirms (None) desired entries *)
  Lemma update_child_value_ok t k nd c vt v :
    node_ok t (k, nd) -> node_ok t (n_id (update_child_value nd c vt v), update_child_value nd c vt v).
  Proof.
    intros [K N]. simpl in *. unfold update_child_value.
    destruct (zassoc c (n_children nd)) as [ch|]; [|split; simpl; [reflexivity|exact N]].
    destruct (zassoc c (n_new nd)) as [dv|] eqn:D; split; simpl; try reflexivity; [|exact N].
    exact (new_state_zset t nd c dv vt None N D Logic.I).
  Qed.

  Lemma handle_set_ok g m : facts g -> Inv g -> wire_ok (m_payload m) = true -> hres_ok g (handle_set g m).
  Proof.
    intros F I W. unfold handle_set. apply known_node_ok; try assumption. intros nd G.
    set (nd' := update_child_value nd (m_child m) (m_sub m) (m_payload m)).
    assert (K : kept g (alert (put_node g nd') m)).
    { apply kept_alert, kept_put_node; [exact (kept_refl g I)|].
      apply (update_child_value_ok _ (m_node m)), get_node_ok; assumption. }
    destruct (n_reboot nd'); [|exact (hres_intro K)].
    destruct (facts_spec g F) as (_ & [z ->] & _). cbn [bind]. rewrite copy_spec by exact W.
    exact (hres_intro K).
  Qed.

  Lemma handle_req_ok g m : facts g -> Inv g -> wire_ok (m_payload m) = true -> hres_ok g (handle_req g m).
  Proof.
    intros F I W. unfold handle_req. apply known_node_ok; try assumption. intros nd G.
    destruct (get_desired_value nd (m_child m) (m_sub m)); [rewrite copy_spec by exact W|];
      exact (hres_intro (kept_refl g I)).
  Qed.

  Lemma handle_id_request_ok g m : facts g -> Inv g -> wire_ok (m_payload m) = true -> hres_ok g (handle_id_request g m).
  Proof.
    intros F I W. pose proof (kept_refl g I) as K0. unfold handle_id_request.
    destruct (next_id g) as [nid|]; [|exact (hres_intro K0)].
    apply (kept_add_sensor _ _ nid) in K0.
    destruct (zhas nid (g_sensors (add_sensor g nid))); cbn [negb]; [|exact (hres_intro K0)].
    destruct (facts_spec g F) as (_ & _ & [z ->] & _). cbn [bind]. rewrite copy_spec by exact W.
    apply hres_intro, kept_alert, K0.
  Qed.

  Lemma node_attr_ok f g m : facts g -> Inv g ->
    (forall nd p, n_id (f nd p) = n_id nd /\ n_new (f nd p) = n_new nd) ->
    hres_ok g (node_attr_handler f g m).
  Proof.
    intros F I Hf. unfold node_attr_handler. apply known_node_ok; try assumption. intros nd G.
    destruct (Hf nd (m_payload m)). apply hres_intro, kept_alert.
    eapply kept_put_same; [exact (kept_refl g I)|eassumption..].
  Qed.

  Lemma create_set_message_valid g nid c vt v :
    dvalid (tab g) nid c vt v ->
    create_set_message orc g nid c (VtInt vt) v None None = Ok (mkMsg nid c (vt_set (tab g)) 0 vt (py_str v)).
  Proof. intro D. unfold create_set_message. simpl. unfold gvalidate. unfold dvalid in D. rewrite D. reflexivity. Qed.

  Lemma flush_values_pre_ok g nid c dv vals :
    dv_ok (tab g) nid c dv -> snd (flush_values_pre orc g nid c dv vals) = None.
  Proof.
    intro D. induction vals as [|[vt x] r IH]; simpl; [reflexivity|].
    destruct (zassoc vt dv) as [[v|]|] eqn:E; try exact IH.
    rewrite (create_set_message_valid g nid c vt v (zassoc_Forall _ _ _ _ D E)).
    destruct (flush_values_pre orc g nid c dv r). exact IH.
  Qed.

  Lemma flush_children_pre_ok g nd chs :
    Forall (fun cd => dv_ok (tab g) (n_id nd) (fst cd) (snd cd)) (n_new nd) ->
    snd (flush_children_pre orc g nd chs) = None.
  Proof.
    intro N. induction chs as [|[k ch] r IH]; simpl; [reflexivity|].
    destruct (zassoc (c_id ch) (n_new nd)) as [dv|] eqn:E; [|exact IH].
    pose proof (flush_values_pre_ok g (n_id nd) (c_id ch) dv (c_values ch) (zassoc_Forall _ _ _ _ N E)) as P.
    destruct (flush_values_pre orc g (n_id nd) (c_id ch) dv (c_values ch)) as [a e]. simpl in P. subst e.
    destruct (flush_children_pre orc g nd r). exact IH.
  Qed.

  Lemma init_smart_sleep_ok t k nd : node_ok t (k, nd) -> node_ok t (n_id (init_smart_sleep nd), init_smart_sleep nd).
  Proof.
    intros [K N]. destruct (add_slots_prefix (n_children nd) (n_new nd)) as (ext & E & F). split; [reflexivity|].
    simpl in *. unfold init_smart_sleep. cbn [n_new with_new]. fold add_slot. rewrite E. apply Forall_app. split; [exact N|].
    eapply Forall_impl; [|exact F]. intros [c dv] H. simpl in H. subst dv. constructor.
  Qed.

  Lemma handle_smartsleep_ok g k nd : Inv g -> get_node g k = Some nd ->
    exists g2, handle_smartsleep orc g nd = Ok g2 /\ Inv g2 /\ g_cf g2 = g_cf g /\
               exists nd2, get_node g2 k = Some nd2.
  Proof.
    intros I G. unfold handle_smartsleep.
    pose proof (get_node_ok _ _ _ I G) as NK. destruct (init_smart_sleep_ok _ _ _ NK) as [_ N1].
    set (nd2 := with_queue (init_smart_sleep nd) []).
    set (g2 := fold_left add_job_send (n_queue (init_smart_sleep nd)) (put_node g nd2)).
    assert (K2 : kept g g2).
    { apply kept_fold_add_job, kept_put_node; [exact (kept_refl g I)|]. split; [reflexivity|exact N1]. }
    assert (FP : snd (flush_children_pre orc g2 nd2 (n_children nd2)) = None).
    { apply flush_children_pre_ok. unfold tab. rewrite (proj2 K2). exact N1. }
    destruct (flush_children_pre orc g2 nd2 (n_children nd2)) as [sets e]. simpl in FP. subst e.
    eexists. split; [reflexivity|]. destruct (kept_fold_add_job sets g g2 K2) as [I3 C3].
    split; [exact I3|]. split; [exact C3|]. exists nd2. unfold get_node.
    rewrite (proj1 (fold_add_job_send_frame sets g2)). unfold g2.
    rewrite (proj1 (fold_add_job_send_frame _ (put_node g nd2))).
    destruct NK as [E _]. simpl in E. rewrite <- E. apply zassoc_zset_same.
  Qed.

  Lemma handle_heartbeat_ok g m : facts g -> Inv g -> hres_ok g (handle_heartbeat_response orc g m).
  Proof.
    intros F I. unfold handle_heartbeat_response. apply known_node_ok; try assumption. intros nd G.
    destruct (handle_smartsleep_ok g (m_node m) nd I G) as (g2 & -> & I2 & C2 & nd2 & G2).
    cbn [bind]. rewrite G2. apply hres_intro, kept_alert.
    eapply kept_put_same; [split; eassumption|exact G2|reflexivity|reflexivity].
  Qed.

  Lemma handle_pre_sleep_ok g m : facts g -> Inv g -> hres_ok g (handle_pre_sleep orc g m).
  Proof.
    intros F I. unfold handle_pre_sleep. apply known_node_ok; try assumption. intros nd G.
    destruct (handle_smartsleep_ok g (m_node m) nd I G) as (g2 & -> & I2 & C2 & _).
    apply hres_intro. split; assumption.
  Qed.

  Lemma fw_lookup_ok t v l f : fws_ok l -> fw_lookup t v l = Some f -> word (fw_blocks f) /\ word (fw_crc f).
  Proof. intros W L. destruct (fw_lookup_In _ _ _ _ L) as [k I]. exact (proj1 (Forall_forall _ _) W _ I). Qed.

  (* the session entry of a node moves from one store to the next, or stays in the second *)
  Lemma store_move_ok nid s1 s2 : store_ok s1 -> store_ok s2 ->
    let found := match zassoc nid s1 with
                 | Some id => Some (id, zdel nid s1, zset nid id s2)
                 | None => match zassoc nid s2 with
                           | Some id => Some (id, s1, zset nid id (zdel nid s2))
                           | None => None
                           end
                 end in
    found = None \/
    exists id s1' s2', found = Some (id, s1', s2') /\ word (fst id) /\ word (snd id) /\ store_ok s1' /\ store_ok s2'.
  Proof.
    intros S1 S2. cbv zeta.
    destruct (zassoc nid s1) as [id|] eqn:E1; [|destruct (zassoc nid s2) as [id|] eqn:E2; [|left; reflexivity]];
      right; do 3 eexists; (split; [reflexivity|]).
    - pose proof (zassoc_Forall _ _ _ _ S1 E1) as W. pose proof W as [W1 W2].
      repeat split; try assumption; [apply Forall_zdel, S1|apply Forall_zset; [exact S2|exact W]].
    - pose proof (zassoc_Forall _ _ _ _ S2 E2) as W. pose proof W as [W1 W2].
      repeat split; try assumption. apply Forall_zset; [apply Forall_zdel, S2|exact W].
  Qed.

  Lemma ota_get_fw_ok o nid first req :
    ota_ok o ->
    ota_ok (fst (ota_get_fw o nid first req)) /\
    forall t v f, snd (ota_get_fw o nid first req) = Some (t, v, f) ->
      match req with Some r => (t, v) = r | None => Forall word [t; v; fw_blocks f; fw_crc f] end.
  Proof.
    intros (R & U & S & FW). unfold ota_get_fw.
    destruct first; cbv beta iota zeta;
      [destruct (store_move_ok nid _ _ R U) as [->|(id & s1' & s2' & -> & W1 & W2 & S1 & S2)]
      |destruct (store_move_ok nid _ _ U S) as [->|(id & s1' & s2' & -> & W1 & W2 & S1 & S2)]];
      try (split; [repeat split; assumption|discriminate]).
    all: set (o' := mkOta _ _ _ _); assert (O' : ota_ok o') by (repeat split; assumption).
    all: destruct req as [[rt rv]|]; [|destruct id as [t0 v0]];
      (destruct (fw_lookup _ _ (o_fw o)) as [f|] eqn:L; (split; [exact O'|]); [|discriminate]);
      intros t v f' [= <- <- <-]; [reflexivity|].
    all: destruct (fw_lookup_ok _ _ _ _ FW L); repeat constructor; assumption.
  Qed.

  Lemma kept_set_ota g o : Inv g -> ota_ok o -> kept g (set_ota g o).
  Proof. intros [S _] O. split; [split; assumption|reflexivity]. Qed.

  Lemma words_ok_list ws : Forall word ws -> words_ok ws = true.
  Proof. intro H. apply forallb_forall, Forall_forall. exact H. Qed.

  Lemma respond_fw_config_ok g m : facts g -> Inv g -> wire_ok (m_payload m) = true ->
    hres_ok g (respond_fw_config g m).
  Proof.
    intros F I W. unfold respond_fw_config.
    destruct (fw_hex_to_int (m_payload m) 5); [|exact (hres_intro (kept_refl g I))].
    destruct (ota_get_fw_ok (g_ota g) (m_node m) true None (proj2 I)) as [O' R].
    destruct (ota_get_fw (g_ota g) (m_node m) true None) as [o' r]. simpl in O', R.
    pose proof (kept_set_ota g o' I O') as K.
    destruct r as [[[t v] f]|]; [|exact (hres_intro K)].
    destruct (facts_spec g F) as (_ & _ & _ & [z ->] & _). cbn [bind]. rewrite copy_spec by exact W.
    unfold fw_config_payload. rewrite fw_int_to_hex_ok by exact (words_ok_list _ (R t v f eq_refl)).
    exact (hres_intro K).
  Qed.

  Lemma respond_fw_ok g m : facts g -> Inv g -> wire_ok (m_payload m) = true -> hres_ok g (respond_fw g m).
  Proof.
    intros F I W. pose proof (hres_intro (rep := None) (kept_refl g I)) as H0. unfold respond_fw.
    destruct (fw_hex_to_int (m_payload m) 3) as [ws|e] eqn:E; [|exact H0].
    destruct (fw_int_hex_roundtrip _ _ _ E) as (_ & _ & WS).
    destruct ws as [|rt [|rv [|rb [|x y]]]]; try exact H0.
    destruct (ota_get_fw_ok (g_ota g) (m_node m) false (Some (rt, rv)) (proj2 I)) as [O' R].
    destruct (ota_get_fw (g_ota g) (m_node m) false (Some (rt, rv))) as [o' r]. simpl in O', R.
    pose proof (kept_set_ota g o' I O') as K.
    destruct r as [[[t v] f]|]; [|exact (hres_intro K)].
    injection (R t v f eq_refl) as -> ->.
    destruct (facts_spec g F) as (_ & _ & _ & _ & [z ->] & _). cbn [bind]. rewrite copy_spec by exact W.
    unfold fw_response_payload. rewrite fw_int_to_hex_ok by exact WS.
    exact (hres_intro K).
  Qed.

  Lemma run_leaf_ok g m ty sub h : facts g -> Inv g -> wire_ok (m_payload m) = true ->
    sub_handler (tab g) ty sub = Some h -> hres_ok g (run_leaf orc clock h g m).
  Proof.
    intros F I W E. pose proof (kept_refl g I) as K0.
    destruct (facts_spec g F) as (_ & _ & _ & _ & _ & SUB & _). destruct (SUB _ _ _ E) as [LO DISC].
    destruct h; try discriminate LO; unfold run_leaf;
      auto using respond_fw_config_ok, respond_fw_ok, handle_id_request_ok, handle_heartbeat_ok, handle_pre_sleep_ok;
      try (apply node_attr_ok; [assumption|assumption|intros; split; reflexivity]).
    - unfold handle_config. rewrite copy_spec by exact W. exact (hres_intro K0).
    - unfold handle_time. rewrite copy_spec by exact W. exact (hres_intro K0).
    - exact (hres_intro K0).
    - apply hres_intro, kept_alert, K0.
    - unfold handle_gateway_ready_20. destruct (DISC eq_refl) as [z ->]. cbn [bind].
      rewrite copy_spec by exact W. apply hres_intro, kept_alert, K0.
    - unfold handle_discover_response. rewrite (is_sensor_closed g _ _ F).
      apply hres_intro. destruct (registered g _ _); [exact K0|apply kept_ask, K0].
  Qed.

  Lemma handle_internal_ok g m : facts g -> Inv g -> wire_ok (m_payload m) = true ->
    hres_ok g (handle_internal orc clock g m).
  Proof.
    intros F I W. unfold handle_internal.
    destruct (sub_handler (tab g) (m_type m) (m_sub m)) as [h|] eqn:E; [|exact (hres_intro (kept_refl g I))].
    eapply run_leaf_ok; eassumption.
  Qed.

  Lemma handle_stream_ok g m : facts g -> Inv g -> wire_ok (m_payload m) = true ->
    hres_ok g (handle_stream orc clock g m).
  Proof.
    intros F I W. unfold handle_stream.
    rewrite (is_sensor_closed g _ _ F).
    destruct (registered g _ _); cbn [bind negb]; [|apply hres_intro, kept_ask, kept_refl, I].
    destruct (sub_handler (tab g) (m_type m) (m_sub m)) as [h|] eqn:E2; [|exact (hres_intro (kept_refl g I))].
    destruct (run_leaf_ok g m _ _ h F I W E2) as (g2 & rep & -> & K2).
    apply hres_intro, kept_alert, K2.
  Qed.

  Lemma validated_type_range g m : cfg_ok (g_cf g) -> gvalidate orc g m = true -> between 0 4 (m_type m) = true.
  Proof.
    intros [v [T _]] V. unfold gvalidate, tab in V. rewrite T in V.
    rewrite validate_conforms in V. unfold spec_accepts in V.
    repeat match type of V with _ && _ = true => apply andb_true_iff in V as [V ?] end. assumption.
  Qed.

  Lemma type_handler_cases g ty : facts g -> between 0 4 ty = true ->
    (ty = 0 /\ type_handler (tab g) ty = Some HPresentation) \/ (ty = 1 /\ type_handler (tab g) ty = Some HSet) \/
    (ty = 2 /\ type_handler (tab g) ty = Some HReq) \/ (ty = 3 /\ type_handler (tab g) ty = Some HInternal) \/
    (ty = 4 /\ type_handler (tab g) ty = Some HStream).
  Proof.
    intros F B. destruct (facts_spec g F) as (_ & _ & _ & _ & _ & _ & T0 & T1 & T2 & T3 & T4).
    apply between_In in B. simpl in B. destruct B as [<-|[<-|[<-|[<-|[<-|[]]]]]]; tauto.
  Qed.

  Lemma run_handler_ok g m h : facts g -> Inv g -> wire_ok (m_payload m) = true ->
    between 0 4 (m_type m) = true -> type_handler (tab g) (m_type m) = Some h ->
    hres_ok g (run_handler orc clock h g m).
  Proof.
    intros F I W B. destruct (type_handler_cases g (m_type m) F B) as [[_ E]|[[_ E]|[[_ E]|[[_ E]|[_ E]]]]];
      rewrite E; intros [= <-]; unfold run_handler.
    - apply handle_presentation_ok; assumption.
    - apply handle_set_ok; assumption.
    - apply handle_req_ok; assumption.
    - apply handle_internal_ok; assumption.
    - apply handle_stream_ok; assumption.
  Qed.

  Theorem logic_total g l : cfg_ok (g_cf g) -> Inv g ->
    exists g' r, logic orc clock g l = Ok (g', r) /\ Inv g' /\ g_cf g' = g_cf g.
  Proof.
    intros C I. pose proof (facts_of_cfg g C) as F. unfold logic.
    destruct (decode l) as [m|] eqn:D; [|exists g; exists None; auto].
    pose proof (decoded_payload_wire_ok _ _ D) as W.
    destruct (gvalidate orc g m) eqn:V; cbn [negb]; [|exists g; exists None; auto].
    pose proof (validated_type_range g m C V) as B.
    destruct (type_handler (tab g) (m_type m)) as [h|] eqn:E;
      [|destruct (type_handler_cases g _ F B) as [[_ T]|[[_ T]|[[_ T]|[[_ T]|[_ T]]]]]; congruence].
    destruct (run_handler_ok g m h F I W B E) as (g1 & rep & -> & K1). cbn [bind].
    pose proof (kept_route_opt g g1 rep K1) as K2.
    destruct (route_opt g1 rep) as [g2 routed]. exists g2. eexists. split; [reflexivity|exact K2].
  Qed.

  Theorem rejected_is_noop g l :
    (decode l = None \/ exists m, decode l = Some m /\ gvalidate orc g m = false) ->
    logic orc clock g l = Ok (g, None).
  Proof.
    intros [D|[m [D V]]]; unfold logic; rewrite D; [reflexivity|]. rewrite V. reflexivity.
  Qed.

  Lemma set_child_value_ok g sid cid vt v mt a : facts g -> Inv g ->
    match set_child_value orc g sid cid vt v mt a with
    | Ok g' => Inv g' /\ g_cf g' = g_cf g
    | Raise _ => True
    end.
  Proof.
    intros F I. unfold set_child_value.
    pose proof (kept_refl g I) as K0. rewrite (is_sensor_closed g _ _ F).
    destruct (registered g sid (Some cid)) eqn:R; cbn [bind negb]; [|apply kept_ask, K0].
    destruct (registered_get g _ _ R) as (nd & G & _). rewrite G.
    destruct (sleeping nd).
    - unfold create_set_message, validate_child_state. destruct (vt_int vt) as [vti|]; [|exact Logic.I].
      destruct (gvalidate orc g (mkMsg (n_id nd) cid (vt_set (tab g)) 0 vti (py_str v))) eqn:V; [|exact Logic.I].
      cbn [bind]. destruct (zassoc cid (n_new nd)) as [dv|] eqn:D; [|exact Logic.I].
      destruct (validate _ _ _ _); cbn [bind]; [|exact Logic.I].
      apply kept_put_node; [exact K0|]. destruct (get_node_ok _ _ _ I G) as [_ N].
      split; [reflexivity|]. exact (new_state_zset _ nd cid dv vti (Some v) N D V).
    - destruct (create_set_message orc g (n_id nd) cid vt v mt a); [apply kept_add_job, K0|exact Logic.I].
  Qed.

  (* firmware images the update call may be given: bytes, and a block count that fits 16 bits *)
  Definition image_ok (bin : option (list N)) : Prop :=
    match bin with
    | Some b => bytes_ok b = true /\ word (fw_blocks (prepare_fw b))
    | None => True
    end.

  Lemma fw_store_ok t v f l : fws_ok l -> word (fw_blocks f) /\ word (fw_crc f) -> fws_ok (fw_store t v f l).
  Proof.
    intros FW W. induction FW as [|[[t' v'] f'] l W' FW IH]; simpl; [constructor; [exact W|constructor]|].
    destruct (Z.eqb t t' && Z.eqb v v'); constructor; assumption.
  Qed.

  Definition update_one (t v : Z) (g : gw) (nid : Z) : gw :=
    match get_node g nid with
    | None => g
    | Some nd =>
        let o := g_ota g in
        put_node (set_ota g (mkOta (o_fw o) (zset nid (t, v) (o_requested o))
                                   (zdel nid (o_unstarted o)) (zdel nid (o_started o))))
                 (with_reboot nd true)
    end.

  (* a node is stored under its own id; update_one keeps that (it needs no more of Inv) *)
  Definition keyed (g : gw) : Prop := Forall (fun kn => n_id (snd kn) = fst kn) (g_sensors g).

  Lemma Inv_keyed g : Inv g -> keyed g.
  Proof. intros [S _]. unfold keyed. eapply Forall_impl; [|exact S]. intros kn [K _]. exact K. Qed.

  Lemma keyed_get g k nd : keyed g -> get_node g k = Some nd -> n_id nd = k.
  Proof. intros K G. exact (zassoc_Forall _ _ _ _ K G). Qed.

  Lemma keyed_update_one t v g nid : keyed g -> keyed (update_one t v g nid).
  Proof.
    intro K. unfold update_one. destruct (get_node g nid) as [nd|] eqn:G; [|exact K].
    apply Forall_zset; [exact K|reflexivity].
  Qed.

  Lemma update_fold_ok t v nids g g1 : word t -> word v -> kept g g1 ->
    kept g (fold_left (update_one t v) nids g1).
  Proof.
    intros Wt Wv. apply fold_left_preserves. clear g1. intros g1 nid K.
    unfold update_one. destruct (get_node g1 nid) as [nd|] eqn:G; [|exact K].
    eapply kept_put_same; [|exact G|reflexivity|reflexivity].
    destruct K as [[S (R & U & ST & FW)] C]. split; [|exact C]. split; [exact S|].
    repeat split; simpl; try assumption;
      [apply Forall_zset; [exact R|split; assumption]|apply Forall_zdel; assumption..].
  Qed.

  Lemma kept_set_fw g fwl : Inv g -> fws_ok fwl ->
    kept g (set_ota g (mkOta fwl (o_requested (g_ota g)) (o_unstarted (g_ota g)) (o_started (g_ota g)))).
  Proof. intros [S (R & U & ST & _)] FO. split; [split; [exact S|repeat split; assumption]|reflexivity]. Qed.

  (* Tasks.update_fw, when it returns: nothing, or the firmware store (with the new image, if one
     was given), then the reboot marks *)
  Lemma update_fw_closed g nids fwt fwv bin g' : update_fw g nids fwt fwv bin = Ok g' ->
    g' = g \/
    exists t x fwl, (word t /\ word x) /\
      (fwl = o_fw (g_ota g) \/ exists b, bin = Some b /\ fwl = fw_store t x (prepare_fw b) (o_fw (g_ota g))) /\
      let g0 := set_ota g (mkOta fwl (o_requested (g_ota g)) (o_unstarted (g_ota g)) (o_started (g_ota g))) in
      g' = g0 \/ g' = fold_left (update_one t x) nids g0.
  Proof.
    unfold update_fw. destruct bin as [[|b0 br]|]; [intro H; inversion H; left; reflexivity| |];
      (destruct (vt_int fwt) as [t|]; [|intro H; inversion H; left; reflexivity]);
      (destruct (vt_int fwv) as [x|]; [|intro H; inversion H; left; reflexivity]);
      (destruct (negb ((0 <=? t) && (t <=? 65535)) || negb ((0 <=? x) && (x <=? 65535))) eqn:RG;
       [intro H; inversion H; left; reflexivity|]);
      apply orb_false_iff in RG as [Wt Wx]; apply negb_false_iff in Wt, Wx;
      match goal with |- context [fw_lookup t x ?l] =>
        destruct (fw_lookup t x l); intro H; inversion H; right; exists t, x, l
      end;
      (split; [split; assumption|]);
      (split; [first [left; reflexivity|right; eexists; split; reflexivity]|cbv zeta; auto]).
  Qed.

  Lemma update_fw_ok g nids fwt fwv bin : Inv g -> image_ok bin ->
    match update_fw g nids fwt fwv bin with
    | Ok g' => Inv g' /\ g_cf g' = g_cf g
    | Raise _ => True
    end.
  Proof.
    intros I IM. destruct (update_fw g nids fwt fwv bin) as [g'|] eqn:H; [|exact Logic.I].
    destruct (update_fw_closed _ _ _ _ _ _ H) as [->|(t & x & fwl & [Wt Wx] & FW & G)]; [exact (kept_refl g I)|].
    assert (K : kept g (set_ota g (mkOta fwl (o_requested (g_ota g)) (o_unstarted (g_ota g)) (o_started (g_ota g))))).
    { apply kept_set_fw; [exact I|]. pose proof I as [_ (_ & _ & _ & F)].
      destruct FW as [->|(b & -> & ->)]; [exact F|]. destruct IM as [BO BL]. apply fw_store_ok; [exact F|].
      split; [exact BL|]. rewrite prepare_fw_crc. apply crc16_range, prepare_fw_bytes, BO. }
    destruct G as [->| ->]; [exact K|exact (update_fold_ok t x nids g _ Wt Wx K)].
  Qed.

  Definition op_ok (o : op) : Prop :=
    match o with UpdateFw _ _ _ bin => image_ok bin | _ => True end.

  (* running a logic job: the reply is sent, an escaping exception only logged *)
  Lemma logic_job_ok g l : cfg_ok (g_cf g) -> Inv g ->
    kept g match logic orc clock g l with
           | Ok (g1, Some rep) => send g1 rep
           | Ok (g1, None) => g1
           | Raise e => emit g (ERaise e)
           end.
  Proof.
    intros C I. destruct (logic_total g l C I) as (g1 & [rep|] & -> & K); [apply kept_send|]; exact K.
  Qed.

  Lemma step_ok g o : cfg_ok (g_cf g) -> Inv g -> op_ok o ->
    Inv (step orc clock g o) /\ g_cf (step orc clock g o) = g_cf g.
  Proof.
    intros C I O. pose proof (kept_refl g I) as K0.
    destruct o as [l| |s c vt v mt a|ns t v b|b]; simpl.
    - unfold recv. destruct (cf_async (g_cf g)); [apply logic_job_ok; assumption|exact K0].
    - unfold pump. destruct (g_jobs g) as [|[l|l] r]; [exact K0| |apply kept_send, K0].
      exact (logic_job_ok (set_jobs g r) l C (Inv_set_jobs g r I)).
    - pose proof (set_child_value_ok g s c vt v mt a (facts_of_cfg g C) I) as H.
      destruct (set_child_value orc g s c vt v mt a); [exact H|exact K0].
    - pose proof (update_fw_ok g ns t v b I O) as H.
      destruct (update_fw g ns t v b); [exact H|exact K0].
    - exact K0.
  Qed.

  Lemma Inv_init cf : Inv (gw_init cf).
  Proof. split; [constructor|repeat split; constructor]. Qed.

  Lemma run_ok ops g : cfg_ok (g_cf g) -> Inv g -> Forall op_ok ops ->
    Inv (run orc clock g ops) /\ g_cf (run orc clock g ops) = g_cf g.
  Proof.
    intros C I F. revert g C I. induction F as [|o ops O _ IH]; intros g C I; [exact (kept_refl g I)|].
    destruct (step_ok g o C I O) as [I1 C1]. rewrite <- C1 in C |- *. exact (IH _ C I1).
  Qed.

  (* C01: in every reachable state the dispatcher processes every next line, and every
     queued line, without raising *)
  Theorem pump_total cf ops l : cfg_ok cf -> Forall op_ok ops ->
    let g := run orc clock (gw_init cf) ops in
    (exists g' r, logic orc clock g l = Ok (g', r)) /\
    (forall l' rest, g_jobs g = JLogic l' :: rest ->
       exists g' r, logic orc clock (set_jobs g rest) l' = Ok (g', r)).
  Proof.
    intros C F g. destruct (run_ok ops (gw_init cf) C (Inv_init cf) F) as [I CF]. fold g in I, CF.
    assert (Cg : cfg_ok (g_cf g)) by (rewrite CF; exact C).
    split; [|intros l' rest _];
      [destruct (logic_total g l Cg I) as (g' & r & E & _)
      |destruct (logic_total (set_jobs g rest) l' Cg (Inv_set_jobs g rest I)) as (g' & r & E & _)];
      exists g', r; exact E.
  Qed.
End Inv.
