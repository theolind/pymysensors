(* C14: the dirty flag discipline and the persistence machine (step / periodic save / clean
   stop + restart) over Model/Gateway.v. *)
From Coq Require Import List NArith ZArith Bool String Lia.
From PMS Require Import Base.PyStr Base.PyInt Base.Exn Model.Codec Model.Rules Model.TableTypes
  Gen.Tables Model.Validate Model.Hex Model.Ota Model.Oracles Model.Gateway Spec.SerialApi
  Proofs.PyStrFacts Proofs.PyIntFacts Proofs.CodecProofs Proofs.ValidateProofs Proofs.GwLemmas Proofs.GwInv
  Spec.TreeMeaning Proofs.TreeProofs Proofs.TreeHistory.
Import ListNotations.
Open Scope string_scope.
Open Scope list_scope.
Open Scope Z_scope.

Section Dirty.
  Variable orc : oracles.
  Variable clock : Z.

  Notation P g := (proj (g_sensors g)).

  (* every operation: tree and flag both kept, or the flag is set *)
  Lemma step_dirty v g o : cfg_is v (g_cf g) -> Inv orc g -> cf_persist (g_cf g) = true ->
    let g' := step orc clock g o in
    (P g' = P g /\ g_dirty g' = g_dirty g) \/ g_dirty g' = true.
  Proof.
    intros CI I PE. destruct (step_dispatched orc clock v g o CI I) as [[j E] _].
    pose proof (eff_tree _ _ _ _ E) as T. pose proof (eff_dirty _ _ _ _ E) as D.
    cbn [g_cf g_dirty set_jobs] in D. rewrite PE in D.
    destruct (dispatched g o) as [l|]; [|left; split; assumption].
    destruct (alv orc v (P g) l) eqn:A; [right; exact D|left]. rewrite (alv_none_mlv orc v _ l A) in T. split; assumption.
  Qed.

  (* the frame part of C14.1: controller calls and send jobs change neither tree nor flag *)
  Theorem controller_ops_frame g o : Inv orc g ->
    match o with Recv _ | Pump => False | _ => True end ->
    P (step orc clock g o) = P g /\ g_dirty (step orc clock g o) = g_dirty g.
  Proof.
    intros I O. destruct (controller_still orc clock g o I O) as [(_ & D & _) E]. split; assumption.
  Qed.

  Theorem send_job_frame g l rest : g_jobs g = JSend l :: rest ->
    P (pump orc clock g) = P g /\ g_dirty (pump orc clock g) = g_dirty g.
  Proof.
    intro J. unfold pump. rewrite J. destruct (still_send (set_jobs g rest) l) as [(_ & D & _) E]. split; assumption.
  Qed.

  (* the persistence machine *)
  Inductive pop := POp (o : op) | PSave | PRestart.
  Definition pstate := (gw * option tree)%type.
  Definition pstep (s : pstate) (o : pop) : pstate :=
    match o with
    | POp o => (step orc clock (fst s) o, snd s)
    | PSave => save_tick (fst s) (snd s)
    | PRestart => restart (fst s) (snd s)
    end.
  Definition prun (s : pstate) (pops : list pop) : pstate := fold_left pstep pops s.
  Definition pop_ok (o : pop) : Prop := match o with POp o => op_ok o | _ => True end.

  Definition synced (s : pstate) : Prop := g_dirty (fst s) = false -> snd s = Some (P (fst s)).

  (* with persistence enabled, a clean state has its tree in the file *)
  Definition PInv (cf : config) (s : pstate) : Prop :=
    g_cf (fst s) = cf /\ Inv orc (fst s) /\ (cf_persist cf = true -> synced s).

  Lemma restart_spec g d : cf_persist (g_cf g) = true -> synced (g, d) ->
    restart g d = (set_dirty (set_sensors (gw_init (g_cf g)) (load_tree (P g))) false, Some (P g)).
  Proof.
    intros PE S. unfold restart, save_tick. rewrite PE. cbn [andb].
    assert (D1 : (if g_dirty g then Some (P g) else d) = Some (P g))
      by (destruct (g_dirty g) eqn:D; [reflexivity|exact (S D)]).
    destruct (g_dirty g); cbn [g_cf set_sensors gw_init g_dirty andb]; rewrite ?PE; cbn [andb]; [|rewrite D1];
      cbn [g_sensors set_sensors]; rewrite proj_load_tree; reflexivity.
  Qed.

  Lemma Inv_loaded g : Inv orc g ->
    Inv orc (set_dirty (set_sensors (gw_init (g_cf g)) (load_tree (P g))) false).
  Proof.
    intros I. pose proof (Inv_keyed orc g I) as KO.
    split; [|repeat split; constructor].
    cbn [g_sensors set_dirty set_sensors]. unfold load_tree, proj. rewrite map_map.
    apply Forall_map. eapply Forall_impl; [|exact KO].
    intros [k nd] K. cbn in *. split; cbn; [exact K|constructor].
  Qed.

  Lemma pstep_inv v cf s o : cfg_is v cf -> pop_ok o -> (o = PRestart -> cf_persist cf = true) ->
    PInv cf s -> PInv cf (pstep s o).
  Proof.
    destruct s as [g d]. intros CI O R (C & I & S). cbn [fst snd] in *. subst cf.
    destruct o as [o| |]; unfold PInv; cbn [pstep fst snd].
    - destruct (step_ok orc clock g o (cfg_is_ok _ _ CI) I O) as [I1 C1].
      split; [exact C1|]. split; [exact I1|]. intros PE D'.
      destruct (step_dirty v g o CI I PE) as [[T D]|D]; cbn [fst snd] in *; [|rewrite D in D'; discriminate D'].
      rewrite T. apply (S PE). cbn [fst]. congruence.
    - unfold save_tick. destruct (cf_persist (g_cf g) && g_dirty g); cbn [fst snd]; [|auto].
      split; [reflexivity|]. split; [revert I; apply Inv_ext; reflexivity|]. intros _ _. reflexivity.
    - pose proof (R eq_refl) as PE. rewrite (restart_spec g d PE (S PE)). cbn [fst snd].
      split; [reflexivity|]. split; [apply Inv_loaded; exact I|].
      intros _ _. cbn [fst snd g_sensors set_dirty set_sensors]. rewrite proj_load_tree. reflexivity.
  Qed.

  Lemma prun_inv v cf pops : cfg_is v cf -> cf_persist cf = true -> Forall pop_ok pops ->
    forall s, PInv cf s -> PInv cf (prun s pops).
  Proof.
    intros CI PE. induction pops as [|o pops IH]; intros F s H; [exact H|].
    inversion F; subst. apply IH; [assumption|]. apply (pstep_inv v); auto.
  Qed.

  Lemma PInv_init cf : PInv cf (gw_init cf, None).
  Proof. split; [reflexivity|]. split; [apply Inv_init|]. intros _ D. discriminate D. Qed.

  Theorem clean_implies_synced v cf pops : cfg_is v cf -> cf_persist cf = true -> Forall pop_ok pops ->
    let s := prun (gw_init cf, None) pops in
    g_dirty (fst s) = false -> snd s = Some (P (fst s)).
  Proof.
    intros CI PE F s. destruct (prun_inv v cf pops CI PE F _ (PInv_init cf)) as (_ & _ & S). exact (S PE).
  Qed.

  Theorem stop_loses_nothing v cf pops : cfg_is v cf -> cf_persist cf = true -> Forall pop_ok pops ->
    let s := prun (gw_init cf, None) pops in
    let s' := pstep s PRestart in
    P (fst s') = P (fst s) /\ snd s' = Some (P (fst s)) /\
    g_sensors (fst s') = load_tree (P (fst s)).
  Proof.
    intros CI PE F s s'. destruct (prun_inv v cf pops CI PE F _ (PInv_init cf)) as (C & I & S).
    fold s in C, I, S. subst s'. cbn [pstep]. destruct s as [g d]. cbn [fst snd] in *. subst cf.
    rewrite (restart_spec g d PE (S PE)). cbn [fst snd g_sensors set_dirty set_sensors].
    rewrite proj_load_tree. repeat split; reflexivity.
  Qed.
End Dirty.
