(* C18 - numeric comparison of dotted versions (Spec.ConfigSpec.cmpv) is a total
   preorder; its recursive characterisation (cmpr); the floor function meets its
   specification for any table (floor_from_spec), and for a table sorted upwards it is
   the first entry not above v, read downwards (floor_from_sorted, floor_module_down). *)
From Coq Require Import List NArith ZArith Bool Lia Arith String.
From PMS Require Import Base.PyStr Model.ConfigSyntax Spec.ConfigSpec.
Import ListNotations.
Open Scope N_scope.
Open Scope list_scope.

Lemma lex_refl a : lex a a = Eq.
Proof. induction a as [|x a IH]; simpl; [reflexivity|]. rewrite N.compare_refl. exact IH. Qed.

Lemma lex_antisym a : forall b, lex b a = CompOpp (lex a b).
Proof.
  induction a as [|x a IH]; intros [|y b]; simpl; try reflexivity.
  rewrite (N.compare_antisym x y). destruct (x ?= y); simpl; auto.
Qed.

Lemma lex_eq a : forall b, lex a b = Eq -> a = b.
Proof.
  induction a as [|x a IH]; intros [|y b]; simpl; intro H; try discriminate; [reflexivity|].
  destruct (x ?= y) eqn:E; try discriminate.
  apply N.compare_eq in E. subst y. f_equal. apply IH. exact H.
Qed.

Lemma lex_lt_trans a : forall b c, lex a b = Lt -> lex b c = Lt -> lex a c = Lt.
Proof.
  induction a as [|x a IH]; intros [|y b] [|z c]; simpl; intros H1 H2; try discriminate; try reflexivity.
  destruct (x ?= y) eqn:E1; try discriminate.
  - apply N.compare_eq in E1. subst y. destruct (x ?= z); try discriminate; auto. eapply IH; eauto.
  - destruct (y ?= z) eqn:E2; try discriminate.
    + apply N.compare_eq in E2. subst z. rewrite E1. reflexivity.
    + assert (E : (x ?= z) = Lt) by (rewrite N.compare_lt_iff in *; lia). rewrite E. reflexivity.
Qed.

Lemma lex_le_trans a b c : lex a b <> Gt -> lex b c <> Gt -> lex a c <> Gt.
Proof.
  intros H1 H2.
  destruct (lex a b) eqn:E1; [|  |congruence].
  - apply lex_eq in E1. subst b. exact H2.
  - destruct (lex b c) eqn:E2; [| |congruence].
    + apply lex_eq in E2. subst c. rewrite E1. discriminate.
    + rewrite (lex_lt_trans _ _ _ E1 E2). discriminate.
Qed.

Lemma lex_app_zeros k a : forall b, List.length a = List.length b ->
  lex (a ++ repeat 0 k) (b ++ repeat 0 k) = lex a b.
Proof.
  induction a as [|x a IH]; intros [|y b] H; simpl in *; try discriminate.
  - apply lex_refl.
  - destruct (x ?= y); auto.
Qed.

Lemma pad_length n l : (List.length l <= n)%nat -> List.length (pad n l) = n.
Proof. intro H. unfold pad. rewrite app_length, repeat_length. lia. Qed.

Lemma pad_more n m l : (List.length l <= n)%nat -> (n <= m)%nat ->
  pad m l = pad n l ++ repeat 0 (m - n).
Proof.
  intros H1 H2. unfold pad. rewrite <- app_assoc, <- repeat_app. do 2 f_equal. lia.
Qed.

Lemma cmpv_at n a b : (List.length a <= n)%nat -> (List.length b <= n)%nat ->
  cmpv a b = lex (pad n a) (pad n b).
Proof.
  intros Ha Hb. unfold cmpv.
  set (m := Nat.max (List.length a) (List.length b)).
  assert (Hm : (m <= n)%nat) by (unfold m; lia).
  rewrite (pad_more m n a), (pad_more m n b) by (unfold m; lia).
  rewrite lex_app_zeros; [reflexivity|].
  rewrite !pad_length by (unfold m; lia). reflexivity.
Qed.

(* ---- cmpv is a total preorder; Eq identifies versions up to trailing zero sections *)
Theorem cmpv_refl a : cmpv a a = Eq.
Proof. unfold cmpv. apply lex_refl. Qed.

Theorem cmpv_antisym a b : cmpv b a = CompOpp (cmpv a b).
Proof. unfold cmpv. rewrite (Nat.max_comm (List.length b)). apply lex_antisym. Qed.

Theorem cmpv_total a b : le_num a b \/ le_num b a.
Proof. unfold le_num. rewrite (cmpv_antisym a b). destruct (cmpv a b); simpl; auto; left + right; discriminate. Qed.

Theorem le_num_trans a b c : le_num a b -> le_num b c -> le_num a c.
Proof.
  unfold le_num.
  set (n := Nat.max (List.length a) (Nat.max (List.length b) (List.length c))).
  rewrite (cmpv_at n a b), (cmpv_at n b c), (cmpv_at n a c) by (unfold n; lia).
  apply lex_le_trans.
Qed.

Theorem cmpv_eq_compat a b c : cmpv a b = Eq -> cmpv a c = cmpv b c.
Proof.
  set (n := Nat.max (List.length a) (Nat.max (List.length b) (List.length c))).
  rewrite (cmpv_at n a b), (cmpv_at n a c), (cmpv_at n b c) by (unfold n; lia).
  intro H. apply lex_eq in H. rewrite H. reflexivity.
Qed.

Lemma le_numb_iff a b : le_numb a b = true <-> le_num a b.
Proof. unfold le_numb, le_num. destruct (cmpv a b); split; congruence. Qed.

Lemma le_numb_false a b : le_numb a b = false -> le_numb b a = true.
Proof.
  unfold le_numb. rewrite (cmpv_antisym a b). destruct (cmpv a b); simpl; congruence.
Qed.

(* "2", "2.0" and "2.0.0" are the same version numerically; 2.0.5 lies between 2.0 and 2.1 *)
Example cmpv_trailing_zero : cmpv [2] [2; 0] = Eq /\ cmpv [2; 0] [2; 0; 0] = Eq /\ cmpv [2; 0; 0; 0] [2] = Eq.
Proof. vm_compute. auto. Qed.
Example cmpv_between : cmpv [2; 0] [2; 0; 5] = Lt /\ cmpv [2; 0; 5] [2; 1] = Lt /\ cmpv [2; 10] [2; 9] = Gt.
Proof. vm_compute. auto. Qed.

(* ---- recursive characterisation: walk both lists, a missing section is 0 *)
Definition nz (l : list N) : bool := existsb (fun x => negb (N.eqb x 0)) l.

Fixpoint cmpr (a b : list N) : comparison :=
  match a, b with
  | [], _ => if nz b then Lt else Eq
  | _, [] => if nz a then Gt else Eq
  | x :: a', y :: b' => match N.compare x y with Eq => cmpr a' b' | c => c end
  end.

Lemma lex_zeros_l b : lex (repeat 0 (List.length b)) b = if nz b then Lt else Eq.
Proof.
  induction b as [|y b IH]; simpl; [reflexivity|].
  destruct y as [|q]; simpl; [exact IH | reflexivity].
Qed.

Lemma cmpv_nil_l b : cmpv [] b = if nz b then Lt else Eq.
Proof.
  unfold cmpv, pad. simpl. rewrite Nat.sub_0_r, Nat.sub_diag, app_nil_r. apply lex_zeros_l.
Qed.

Lemma cmpv_nil_r a : cmpv a [] = if nz a then Gt else Eq.
Proof. rewrite (cmpv_antisym [] a), cmpv_nil_l. destruct (nz a); reflexivity. Qed.

Lemma cmpv_cons x a y b :
  cmpv (x :: a) (y :: b) = match N.compare x y with Eq => cmpv a b | c => c end.
Proof. unfold cmpv, pad. simpl. reflexivity. Qed.

Theorem cmpv_cmpr a : forall b, cmpv a b = cmpr a b.
Proof.
  induction a as [|x a IH]; intros b.
  - rewrite cmpv_nil_l. destruct b; reflexivity.
  - destruct b as [|y b].
    + rewrite cmpv_nil_r. reflexivity.
    + rewrite cmpv_cons. simpl. rewrite IH. reflexivity.
Qed.

(* ---- the floor function meets its specification, whatever the table of supported versions *)
Lemma floor_from_spec l v : forall best,
  (forall b m, best = Some (b, m) -> le_num b v) ->
  match floor_from best l v with
  | Some (c, m) =>
      (best = Some (c, m) \/ In (c, m) l) /\ le_num c v
      /\ (forall b m', best = Some (b, m') -> le_num b c)
      /\ (forall c', In c' (map fst l) -> le_num c' v -> le_num c' c)
  | None => best = None /\ forall c', In c' (map fst l) -> ~ le_num c' v
  end.
Proof.
  induction l as [|[c m] l IH]; intros best Hb; simpl.
  - destruct best as [[b mb]|]; [|auto]. split; [auto|]. split; [eauto|]. split; [|contradiction].
    intros b' m' [= <- <-]. unfold le_num. rewrite cmpv_refl. discriminate.
  - set (better := match best with None => true | Some (b, _) => le_numb b c end).
    destruct (le_numb c v && better) eqn:T.
    + (* c becomes the best so far: it is below v and not below the old best *)
      apply andb_prop in T as [Tv Tb]. apply le_numb_iff in Tv.
      specialize (IH (Some (c, m))). destruct (floor_from (Some (c, m)) l v) as [[c1 m1]|].
      * destruct IH as (Hin & Hv & Hbest & Hall); [intros ? ? [= <- <-]; exact Tv|].
        pose proof (Hbest c m eq_refl) as Hc. split; [destruct Hin as [[= <- <-]|]; auto|]. split; [exact Hv|]. split.
        -- intros b m' ->. apply le_num_trans with c; [|exact Hc]. apply le_numb_iff. exact Tb.
        -- intros c' [<-|Hc'] Hle; auto.
      * destruct IH as [[=] _]. intros ? ? [= <- <-]. exact Tv.
    + (* c is above v, or below the best so far *)
      specialize (IH best Hb). destruct (floor_from best l v) as [[c1 m1]|].
      * destruct IH as (Hin & Hv & Hbest & Hall). split; [tauto|]. split; [exact Hv|]. split; [exact Hbest|].
        intros c' [<-|Hc'] Hle; [|auto]. apply le_numb_iff in Hle. rewrite Hle in T. subst better.
        destruct best as [[b mb]|]; [|discriminate]. apply le_numb_false in T.
        apply le_num_trans with b; [apply le_numb_iff, T|eauto].
      * destruct IH as [-> Hall]. split; [reflexivity|]. intros c' [<-|Hc']; [|auto].
        rewrite <- le_numb_iff. simpl in T. rewrite andb_true_r in T. congruence.
Qed.

Theorem floor_module_spec v :
  (exists c, is_floor v c /\ In (c, floor_module v) supported)
  \/ ((forall c, In c (map fst supported) -> ~ le_num c v) /\ floor_module v = fallback_module).
Proof.
  unfold floor_module, is_floor. pose proof (floor_from_spec supported v None) as H.
  destruct (floor_from None supported v) as [[c m]|].
  - destruct H as ([[=]|Hin] & Hv & _ & Hall); [discriminate|]. left. exists c.
    split; [|exact Hin]. split; [|auto]. apply in_map_iff. exists (c, m). auto.
  - right. split; [apply H; discriminate|reflexivity].
Qed.

(* ---- for a table sorted upwards the floor is the first entry not above v, read downwards *)
Fixpoint sorted_up (l : list (list N * pstr)) : bool :=
  match l with
  | [] => true
  | x :: r => forallb (fun y => le_numb (fst x) (fst y)) r && sorted_up r
  end.

Definition not_above (v : list N) (cm : list N * pstr) : bool := le_numb (fst cm) v.

Lemma find_app {A} (f : A -> bool) l1 l2 :
  List.find f (l1 ++ l2) = match List.find f l1 with Some x => Some x | None => List.find f l2 end.
Proof. induction l1 as [|a l1 IH]; simpl; [reflexivity|]. destruct (f a); auto. Qed.

Lemma floor_from_sorted l v : forall best,
  sorted_up l = true ->
  (forall b m, best = Some (b, m) -> forallb (fun y => le_numb b (fst y)) l = true) ->
  floor_from best l v = match List.find (not_above v) (rev l) with Some x => Some x | None => best end.
Proof.
  induction l as [|[c m] l IH]; intros best S Hb; simpl; [reflexivity|].
  apply andb_prop in S as [Sc S]. rewrite find_app. simpl. unfold not_above at 2. simpl.
  replace (match best with None => true | Some (b, _) => le_numb b c end) with true.
  2:{ destruct best as [[b mb]|]; [|reflexivity]. specialize (Hb b mb eq_refl). simpl in Hb.
      apply andb_prop in Hb as [-> _]. reflexivity. }
  rewrite andb_true_r. destruct (le_numb c v).
  - rewrite IH; [|exact S|intros ? ? [= <- <-]; exact Sc]. destruct (List.find _ (rev l)); reflexivity.
  - rewrite IH; [|exact S|]. { destruct (List.find _ (rev l)); reflexivity. }
    intros b mb E. specialize (Hb b mb E). simpl in Hb. apply andb_prop in Hb as [_ Hb]. exact Hb.
Qed.

(* the supported versions downwards *)
Definition supported_down : list (list N * pstr) :=
  [ ([2; 2], s2p "mysensors.const_22"); ([2; 1], s2p "mysensors.const_21");
    ([2; 0], s2p "mysensors.const_20"); ([1; 5], s2p "mysensors.const_15");
    ([1; 4], s2p "mysensors.const_14") ]%string.

Lemma floor_module_down v :
  floor_module v = match List.find (not_above v) supported_down with Some (_, m) => m | None => fallback_module end.
Proof.
  unfold floor_module. rewrite floor_from_sorted; [|reflexivity|discriminate].
  change (rev supported) with supported_down. destruct (List.find _ _); reflexivity.
Qed.

Lemma le_numb_trans c1 c2 v : le_numb c1 c2 = true -> le_numb c2 v = true -> le_numb c1 v = true.
Proof. rewrite !le_numb_iff. apply le_num_trans. Qed.

(* v is below c0 and c0 below every entry: no entry is below v *)
Lemma find_not_above_none c0 v l :
  le_numb c0 v = false -> forallb (fun cm => le_numb c0 (fst cm)) l = true -> List.find (not_above v) l = None.
Proof.
  intro E. induction l as [|cm l IH]; simpl; [reflexivity|]. intro H. apply andb_prop in H as [H0 H].
  unfold not_above at 1. destruct (le_numb (fst cm) v) eqn:X; [|exact (IH H)].
  rewrite (le_numb_trans _ _ _ H0 X) in E. discriminate.
Qed.
