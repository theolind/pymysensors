(* C04: the tree (and the callback log) over whole histories, both task flavours. *)
From Coq Require Import List NArith ZArith Bool String Lia.
From PMS Require Import Base.PyStr Base.PyInt Base.Exn Model.Codec Model.Rules Model.TableTypes
  Gen.Tables Model.Validate Model.Hex Model.Ota Model.Oracles Model.Gateway Spec.SerialApi
  Proofs.PyStrFacts Proofs.PyIntFacts Proofs.CodecProofs Proofs.ValidateProofs Proofs.GwLemmas Proofs.GwInv
  Spec.TreeMeaning Proofs.TreeProofs.
Import ListNotations.
Open Scope string_scope.
Open Scope list_scope.
Open Scope Z_scope.

Definition recv_lines (ops : list op) : list pstr :=
  flat_map (fun o => match o with Recv l => [l] | _ => [] end) ops.

Definition op_lines (o : op) : list pstr := match o with Recv l => [l] | _ => [] end.

Lemma recv_lines_cons o ops : recv_lines (o :: ops) = op_lines o ++ recv_lines ops.
Proof. reflexivity. Qed.

Lemma recv_lines_map ls : recv_lines (map Recv ls) = ls.
Proof. induction ls as [|l ls IH]; [reflexivity|]. unfold recv_lines in *. cbn [map flat_map app]. rewrite IH. reflexivity. Qed.

(* the line the dispatcher processes in a step: at once in the asyncio flavour, when the pump
   reaches it in the threaded one *)
Definition dispatched (g : gw) (o : op) : option pstr :=
  match o with
  | Recv l => if cf_async (g_cf g) then Some l else None
  | Pump => match g_jobs g with JLogic l :: _ => Some l | _ => None end
  | _ => None
  end.

Section History.
  Variable orc : oracles.
  Variable clock : Z.

  Notation P g := (proj (g_sensors g)).

  (* the verdict of the configured version v on a message *)
  Definition accv (v : ver) : msg -> bool := validate (orc_version orc) (orc_float orc) (tab_of v).
  Definition mlv (v : ver) : tree -> pstr -> tree := meaning_line (safe_version orc) (accv v) v.
  Definition alv (v : ver) : tree -> pstr -> option msg := alerted_line (accv v) v.

  Lemma ml_cfg v g : cfg_is v (g_cf g) -> ml orc v g = mlv v.
  Proof. intros [T _]. unfold ml, mlv, accv, gvalidate, tab. rewrite T. reflexivity. Qed.
  Lemma al_cfg v g : cfg_is v (g_cf g) -> al orc v g = alv v.
  Proof. intros [T _]. unfold al, alv, accv, gvalidate, tab. rewrite T. reflexivity. Qed.

  (* a line that does not alert does not change the tree *)
  Lemma alv_none_mlv v t l : alv v t l = None -> mlv v t l = t.
  Proof.
    unfold alv, mlv, alerted_line, meaning_line. destruct (decode l) as [m|]; [|reflexivity].
    destruct (accv v m); [|reflexivity]. cbn [andb]. unfold alerting.
    destruct (alerting_k (kind_of v m) t m) eqn:A; [discriminate|]. intros _. apply meaning_unchanged. exact A.
  Qed.

  Definition async_idle (g : gw) : Prop := cf_async (g_cf g) = true -> g_jobs g = [].

  (* what a step does, up to the job queue it starts from: the effect of the dispatched line *)
  Definition step_eff (v : ver) (g g' : gw) (lo : option pstr) : Prop :=
    exists j, eff (set_jobs g j) g' (match lo with Some l => mlv v (P g) l | None => P g end)
                  (match lo with Some l => alv v (P g) l | None => None end).

  Lemma eff_jobs g g' t a : eff g g' t a -> async_idle g -> pending g' = pending g /\ async_idle g'.
  Proof.
    intros E AI. split; [exact (eff_pending _ _ _ _ E)|]. unfold async_idle. rewrite (eff_cf _ _ _ _ E).
    destruct E as (_ & _ & _ & ext & js & (_ & J & _ & N) & _). intro A. rewrite J, (AI A), (N A). reflexivity.
  Qed.

  (* protocol.handle_line inline / one pump iteration on a queued line *)
  Lemma dispatch_eff v g l : cfg_is v (g_cf g) -> Inv orc g ->
    eff g match logic orc clock g l with
          | Ok (g1, Some r) => send g1 r
          | Ok (g1, None) => g1
          | Raise e => emit g (ERaise e)
          end (mlv v (P g) l) (alv v (P g) l).
  Proof.
    intros CI I. destruct (logic_total orc clock g l (cfg_is_ok _ _ CI) I) as (g1 & r & E & _). rewrite E.
    pose proof (logic_eff orc clock v g l g1 r CI I E) as HE. rewrite (ml_cfg v g CI), (al_cfg v g CI) in HE.
    destruct r; [eapply eff_still_after; [exact HE|apply still_send]|exact HE].
  Qed.

  (* every operation: the effect of the dispatched line; queued + received = dispatched + still queued *)
  Lemma step_dispatched v g o : cfg_is v (g_cf g) -> Inv orc g ->
    let g' := step orc clock g o in
    step_eff v g g' (dispatched g o) /\
    (async_idle g ->
     pending g ++ op_lines o = match dispatched g o with Some l => [l] | None => [] end ++ pending g' /\
     async_idle g').
  Proof.
    intros CI I.
    assert (ST : forall g', still g g' ->
              step_eff v g g' None /\ (async_idle g -> pending g ++ [] = [] ++ pending g' /\ async_idle g')).
    { intros g' S. pose proof (eff_of_still g g' S) as H. split; [exists (g_jobs g); exact H|].
      intro AI. destruct (eff_jobs _ _ _ _ H AI) as [-> A]. rewrite app_nil_r. auto. }
    destruct o as [l| |s c vt x mt a|ns t x b|b]; cbn [step op_lines dispatched]; cbv zeta.
    - unfold recv. destruct (cf_async (g_cf g)) eqn:A.
      + pose proof (dispatch_eff v g l CI I) as HE. split; [exists (g_jobs g); exact HE|].
        intro AI. destruct (eff_jobs _ _ _ _ HE AI) as [-> A']. unfold pending. rewrite (AI A). auto.
      + split; [exists (g_jobs g ++ [JLogic l]); exact (eff_of_quiet _ _ (quiet_refl _))|]. intros _.
        unfold pending. cbn [g_jobs set_jobs]. rewrite flat_map_app. split; [reflexivity|].
        intro A'. cbn in A'. congruence.
    - unfold pump. destruct (g_jobs g) as [|[l|l] rest] eqn:J; [apply ST, still_refl| |].
      + pose proof (dispatch_eff v (set_jobs g rest) l CI (Inv_set_jobs orc g rest I)) as HE.
        split; [exists rest; exact HE|]. intro AI.
        rewrite (eff_pending _ _ _ _ HE), app_nil_r. unfold pending. rewrite J. split; [reflexivity|].
        intro A'. rewrite (eff_cf _ _ _ _ HE) in A'. rewrite (AI A') in J. discriminate.
      + pose proof (eff_of_still _ _ (still_send (set_jobs g rest) l)) as HE.
        split; [exists rest; exact HE|]. intro AI.
        rewrite (eff_pending _ _ _ _ HE), app_nil_r. unfold pending. rewrite J. split; [reflexivity|].
        intro A'. rewrite (eff_cf _ _ _ _ HE) in A'. rewrite (AI A') in J. discriminate.
    - exact (ST _ (controller_still orc clock g (SetChild s c vt x mt a) I Logic.I)).
    - exact (ST _ (controller_still orc clock g (UpdateFw ns t x b) I Logic.I)).
    - exact (ST _ (controller_still orc clock g (SetMetric b) I Logic.I)).
  Qed.

  (* abstract state: the tree and the list of callback events so far *)
  Definition astate := (tree * list event)%type.
  Definition astep (v : ver) (cb : bool) (s : astate) (l : pstr) : astate :=
    (mlv v (fst s) l,
     snd s ++ match alv v (fst s) l with
              | Some m => if cb then [ECallback m (mlv v (fst s) l)] else []
              | None => []
              end).
  Definition aof (g : gw) : astate := (P g, cbs (g_log g)).

  Lemma fst_fold_astep v cb ls s : fst (fold_left (astep v cb) ls s) = fold_left (mlv v) ls (fst s).
  Proof. revert s. induction ls as [|l ls IH]; intro s; simpl; [reflexivity|]. rewrite IH. reflexivity. Qed.

  Lemma aof_step v g g' lo : step_eff v g g' lo ->
    aof g' = fold_left (astep v (cf_callback (g_cf g))) (match lo with Some l => [l] | None => [] end) (aof g).
  Proof.
    intros [j E]. destruct (eff_log _ _ _ _ E) as (ext & L & B). unfold aof. rewrite (eff_tree _ _ _ _ E), L, cbs_app, B.
    destruct lo; [reflexivity|]. cbn. rewrite app_nil_r. reflexivity.
  Qed.

  Lemma run_fold v ops : forall g, cfg_is v (g_cf g) -> Inv orc g -> Forall op_ok ops -> async_idle g ->
    let g' := run orc clock g ops in
    fold_left (astep v (cf_callback (g_cf g))) (pending g') (aof g') =
    fold_left (astep v (cf_callback (g_cf g))) (pending g ++ recv_lines ops) (aof g) /\ async_idle g'.
  Proof.
    induction ops as [|o ops IH]; intros g CI I F AI; cbv zeta.
    - simpl. rewrite app_nil_r. split; [reflexivity|exact AI].
    - inversion F as [|? ? O F']; subst.
      destruct (step_dispatched v g o CI I) as (S1 & SA). destruct (SA AI) as [PE A1].
      destruct (step_ok orc clock g o (cfg_is_ok _ _ CI) I O) as [I1 C1].
      assert (CI1 : cfg_is v (g_cf (step orc clock g o))) by (rewrite C1; exact CI).
      destruct (IH (step orc clock g o) CI1 I1 F' A1) as [S2 A2].
      unfold run in *. cbn [fold_left]. split; [|exact A2].
      rewrite C1 in S2. rewrite S2, (aof_step v _ _ _ S1), <- fold_left_app, app_assoc, <- PE.
      rewrite recv_lines_cons, app_assoc. reflexivity.
  Qed.

  Lemma cfg_is_init v cf : cfg_is v cf -> cfg_is v (g_cf (gw_init cf)).
  Proof. intro C. exact C. Qed.

  (* C04.2, both flavours, any placement of pump iterations and controller calls: processing
     the still-queued lines abstractly from the current tree / callback log gives the meaning
     of ALL received lines in order *)
  Theorem history_meaning v cf ops : cfg_is v cf -> Forall op_ok ops ->
    let g := run orc clock (gw_init cf) ops in
    fold_left (astep v (cf_callback cf)) (pending g) (P g, cbs (g_log g)) =
    fold_left (astep v (cf_callback cf)) (recv_lines ops) ([], []) /\ async_idle g.
  Proof.
    intros CI F. apply (run_fold v ops (gw_init cf) CI (Inv_init orc cf) F). intros _. reflexivity.
  Qed.

  Theorem tree_is_fold_of_meaning v cf ops : cfg_is v cf -> Forall op_ok ops ->
    let g := run orc clock (gw_init cf) ops in
    fold_left (mlv v) (pending g) (P g) = fold_left (mlv v) (recv_lines ops) [].
  Proof.
    intros CI F g. destruct (history_meaning v cf ops CI F) as [H _]. fold g in H.
    apply (f_equal fst) in H. rewrite !fst_fold_astep in H. exact H.
  Qed.

  (* asyncio flavour: nothing is ever queued *)
  Theorem async_never_queues v cf ops : cfg_is v cf -> Forall op_ok ops -> cf_async cf = true ->
    g_jobs (run orc clock (gw_init cf) ops) = [].
  Proof.
    intros CI F A. destruct (history_meaning v cf ops CI F) as [_ A2]. apply A2.
    destruct (run_ok orc clock ops (gw_init cf) (cfg_is_ok _ _ CI) (Inv_init orc cf) F) as [_ C].
    rewrite C. exact A.
  Qed.
End History.
