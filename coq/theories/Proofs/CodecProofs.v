(* C02: Message.encode / decode / copy.  A line is split at ";" after rstrip; the integer fields
   print without ";" and without white space at the ends (PyIntFacts), so encode then decode gives the
   message back when the payload can be carried (wire_ok), and decode only yields such payloads. *)
From Coq Require Import List NArith ZArith Bool Lia.
From PMS Require Import Base.PyStr Base.PyInt Base.Exn Model.Codec
  Proofs.PyStrFacts Proofs.PyIntFacts.
Import ListNotations.

Lemma isspace_semi : isspace semi = false.
Proof. vm_compute. reflexivity. Qed.
Lemma isspace_nl : isspace nl = true.
Proof. vm_compute. reflexivity. Qed.

Lemma wire_ok_spec p : wire_ok p = true <-> mem_N semi p = false /\ no_trailing isspace p = true.
Proof.
  unfold wire_ok. rewrite andb_true_iff, negb_true_iff. tauto.
Qed.

(* the line without its newline *)
Definition body_of (m : msg) : pstr :=
  print (m_node m) ++ [semi] ++ print (m_child m) ++ [semi] ++ print (m_type m) ++ [semi] ++
  print (m_ack m) ++ [semi] ++ print (m_sub m) ++ [semi] ++ m_payload m.

Lemma encode_body m : encode m = body_of m ++ [nl].
Proof. unfold encode, encode_with, body_of. simpl. rewrite <- !app_assoc. reflexivity. Qed.

Lemma encode_nonnil m : encode m <> [].
Proof. rewrite encode_body. destruct (body_of m); discriminate. Qed.

Lemma body_no_trailing m : no_trailing isspace (m_payload m) = true ->
  no_trailing isspace (body_of m) = true.
Proof.
  intro H. unfold body_of. destruct (m_payload m) as [|c p] eqn:E.
  - rewrite !app_assoc. rewrite app_nil_r. rewrite no_trailing_snoc.
    rewrite isspace_semi. reflexivity.
  - rewrite !app_assoc. rewrite no_trailing_app_r by discriminate. exact H.
Qed.

Lemma split_body m : mem_N semi (m_payload m) = false ->
  split semi (body_of m) =
  [print (m_node m); print (m_child m); print (m_type m); print (m_ack m); print (m_sub m); m_payload m].
Proof.
  intro H. unfold body_of.
  repeat (change ([semi] ++ ?x) with (semi :: x);
          rewrite split_app_delim by apply print_no_semi; f_equal).
  apply split_no_delim. exact H.
Qed.

Theorem decode_encode m : wire_ok (m_payload m) = true -> decode (encode m) = Some m.
Proof.
  intro W. apply wire_ok_spec in W as [W1 W2].
  unfold decode. rewrite encode_body.
  rewrite rstrip_snoc_space by apply isspace_nl.
  rewrite rstrip_id by (apply body_no_trailing; exact W2).
  rewrite split_body by exact W1.
  cbn [last removelast map_opt]. rewrite !parse_print. cbn [option_map].
  destruct m; reflexivity.
Qed.

Lemma map_opt_length {A B} (f : A -> option B) l r : map_opt f l = Some r -> length r = length l.
Proof.
  revert r; induction l as [|x l IH]; simpl; intros r H; [inversion H; reflexivity|].
  destruct (f x); [|discriminate]. destruct (map_opt f l); [|discriminate].
  inversion H; subst. simpl. f_equal. apply IH. reflexivity.
Qed.

Lemma decoded_payload_wire_ok l m : decode l = Some m -> wire_ok (m_payload m) = true.
Proof.
  unfold decode. intro H.
  destruct (map_opt parse (removelast (split semi (rstrip isspace l)))) as [hs|]; [|discriminate].
  destruct hs as [|a [|b [|c [|d [|e [|? ?]]]]]]; try discriminate.
  inversion H; subst; clear H. simpl m_payload.
  destruct (split_last_suffix semi (rstrip isspace l)) as [pre [E M]].
  apply wire_ok_spec. split; [exact M|].
  apply (no_trailing_suffix isspace pre). rewrite <- E. apply rstrip_no_trailing.
Qed.

(* canonical line: what encode produces for a carriable payload *)
Definition canonical (l : pstr) : Prop :=
  exists m, wire_ok (m_payload m) = true /\ l = encode m.

Theorem encode_decode_canonical l m : decode l = Some m ->
  canonical (encode m) /\ decode (encode m) = Some m /\ (canonical l -> encode m = l).
Proof.
  intro H. pose proof (decoded_payload_wire_ok _ _ H) as W. split; [|split].
  - exists m. split; [exact W|reflexivity].
  - apply decode_encode. exact W.
  - intros [m0 [W0 ->]]. rewrite decode_encode in H by exact W0. congruence.
Qed.

Theorem copy_spec m r : wire_ok (m_payload m) = true -> copy m r = Ok (override m r).
Proof. intro W. unfold copy. rewrite decode_encode by exact W. reflexivity. Qed.

(* decode can only fail with ValueError: it is a total function into option *)
Theorem decode_total l : (exists m, decode l = Some m) \/ decode l = None.
Proof. destruct (decode l); [left; eexists; reflexivity|right; reflexivity]. Qed.
