(* Facts about Base/PyInt.v: what str() of an integer looks like, and int(str(z)) = z. *)
From Coq Require Import List NArith ZArith Bool Decimal DecimalZ Lia.
From PMS Require Import Base.PyStr Base.PyInt Gen.UnicodeTables Proofs.PyStrFacts.
Import ListNotations.
Open Scope N_scope.

(* characters str(int) can produce *)
Definition numchars : list N := [45; 48; 49; 50; 51; 52; 53; 54; 55; 56; 57].

Lemma numchar_facts c : In c numchars ->
  intspace c = false /\ isspace c = false /\ c <> 59 /\ c <> 43 /\ c <> 95.
Proof.
  unfold numchars. intro H.
  repeat (destruct H as [<-|H]; [repeat split; try (vm_compute; reflexivity); discriminate|]).
  destruct H.
Qed.

Lemma uint_chars_numchars u : Forall (fun c => In c numchars) (uint_chars u).
Proof.
  induction u; simpl; constructor; try assumption; unfold numchars; simpl; tauto.
Qed.

Lemma print_numchars z : Forall (fun c => In c numchars) (print z).
Proof.
  unfold print. destruct (Z.to_int z).
  - apply uint_chars_numchars.
  - constructor; [unfold numchars; simpl; tauto| apply uint_chars_numchars].
Qed.

Lemma to_int_nonnil z : match Z.to_int z with Pos u | Neg u => u <> Nil end.
Proof.
  destruct z; simpl; try discriminate.
  - pose proof (DecimalPos.Unsigned.to_uint_nonnil p). exact H.
  - pose proof (DecimalPos.Unsigned.to_uint_nonnil p). exact H.
Qed.

Lemma print_nonempty z : print z <> [].
Proof.
  unfold print. pose proof (to_int_nonnil z) as H.
  destruct (Z.to_int z) as [u|u]; [|discriminate].
  destruct u; simpl; try discriminate. congruence.
Qed.

Lemma print_no_semi z : mem_N 59 (print z) = false.
Proof.
  destruct (mem_N 59 (print z)) eqn:E; [|reflexivity].
  apply mem_N_In in E. pose proof (print_numchars z) as F.
  rewrite Forall_forall in F. apply F in E. apply numchar_facts in E. tauto.
Qed.

Lemma digit_of_ascii :
  digit_of 48 = Some 0 /\ digit_of 49 = Some 1 /\ digit_of 50 = Some 2 /\
  digit_of 51 = Some 3 /\ digit_of 52 = Some 4 /\ digit_of 53 = Some 5 /\
  digit_of 54 = Some 6 /\ digit_of 55 = Some 7 /\ digit_of 56 = Some 8 /\
  digit_of 57 = Some 9.
Proof. repeat split; vm_compute; reflexivity. Qed.

Lemma body_digit st c d r : c <> 95 -> digit_of c = Some d ->
  body st (c :: r) = option_map (cons_digit d) (body BDigit r).
Proof.
  intros Hc Hd. simpl. apply N.eqb_neq in Hc. rewrite Hc, Hd. reflexivity.
Qed.

Lemma body_uint_chars st u : (u <> Nil \/ st = BDigit) -> body st (uint_chars u) = Some u.
Proof.
  destruct digit_of_ascii as (H0&H1&H2&H3&H4&H5&H6&H7&H8&H9).
  revert st. induction u; intros st Hst;
    try (cbn [uint_chars]; erewrite body_digit; [|discriminate|eassumption];
         rewrite IHu by (right; reflexivity); reflexivity).
  destruct Hst as [Hst| ->]; [congruence|reflexivity].
Qed.

Lemma strip_numchars s : s <> [] -> Forall (fun c => In c numchars) s -> strip intspace s = s.
Proof.
  intros NE F. unfold strip.
  destruct s as [|c s]; [congruence|].
  assert (Hc : intspace c = false) by (inversion F; subst; apply numchar_facts; assumption).
  rewrite lstrip_id by exact Hc.
  apply rstrip_id. unfold no_trailing.
  destruct (List.rev (c :: s)) as [|x r] eqn:R; [reflexivity|].
  assert (In x (c :: s)) by (apply in_rev; rewrite R; left; reflexivity).
  rewrite Forall_forall in F. apply F in H. apply numchar_facts in H.
  destruct H as [H _]. rewrite H. reflexivity.
Qed.

Lemma sign_split_uint u : u <> Nil -> sign_split (uint_chars u) = (false, uint_chars u).
Proof. destruct u; intro H; reflexivity. Qed.

Theorem parse_print z : parse (print z) = Some z.
Proof.
  unfold parse. rewrite strip_numchars by (apply print_nonempty || apply print_numchars).
  unfold print. pose proof (DecimalZ.of_to z) as OT. pose proof (to_int_nonnil z) as NN.
  destruct (Z.to_int z) as [u|u].
  - rewrite sign_split_uint by exact NN. cbv beta iota.
    rewrite body_uint_chars by (left; exact NN). cbv beta iota. simpl option_map. f_equal. exact OT.
  - change (sign_split (45 :: uint_chars u)) with (true, uint_chars u). cbv beta iota.
    rewrite body_uint_chars by (left; exact NN). cbv beta iota. simpl option_map. f_equal. exact OT.
Qed.
